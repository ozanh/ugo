(* C09 over Abort.v.  states v holds the initial states and the successors of its members (closed,
   by evaluation), hence all reachable states (reachable_in_closed); what is claimed once Abort has
   returned is computed per member (bounded) and read back by all_paths_done_sound. *)
From Coq Require Import List Bool Lia.
From Ugo Require Import Abort.Abort.
Import ListNotations.

Lemma rpc_eqb_eq x y : rpc_eqb x y = true -> x = y.
Proof. destruct x, y; simpl; try discriminate; try reflexivity. intros H. apply Bool.eqb_prop in H. congruence. Qed.
Lemma apc_eqb_eq x y : apc_eqb x y = true -> x = y.
Proof. destruct x, y; simpl; try discriminate; reflexivity. Qed.
Lemma st_eqb_eq x y : st_eqb x y = true -> x = y.
Proof.
  destruct x as [r1 c1 g1 p1 a1], y as [r2 c2 g2 p2 a2]. unfold st_eqb.
  cbn [root_flag child_flag registered r a]. intros H.
  apply andb_true_iff in H as [H Ha]. apply andb_true_iff in H as [H Hr].
  apply andb_true_iff in H as [H Hg]. apply andb_true_iff in H as [Hrf Hcf].
  apply Bool.eqb_prop in Hrf, Hcf, Hg. apply rpc_eqb_eq in Hr. apply apc_eqb_eq in Ha. congruence.
Qed.

Lemma mem_In s l : mem s l = true -> In s l.
Proof.
  unfold mem. intros H. apply existsb_exists in H as [x [Hin He]]. apply st_eqb_eq in He. subst. exact Hin.
Qed.

Definition closed (v : version) : bool :=
  forallb (fun s => forallb (fun s' => mem s' (states v)) (succs v s)) (states v).

Lemma closed_fixed : closed VFixed = true.
Proof. vm_compute. reflexivity. Qed.
Lemma closed_orig : closed VOrig = true.
Proof. vm_compute. reflexivity. Qed.
Lemma init_in v : In init (states v) /\ In init_stale (states v).
Proof. destruct v; split; apply mem_In; vm_compute; reflexivity. Qed.

Lemma step_in_succs v m s s' : step v m s = Some s' -> In s' (succs v s).
Proof.
  intros H. unfold succs. apply in_flat_map.
  exists m. split.
  - destruct m as [[| |]|]; simpl; auto.
  - rewrite H. left. reflexivity.
Qed.

Lemma reachable_in_closed v (seen : list st) s :
  forallb (fun s => forallb (fun s' => mem s' seen) (succs v s)) seen = true ->
  In init seen -> In init_stale seen -> reachable v s -> In s seen.
Proof.
  intros Hc Hi1 Hi2 R. induction R as [| | s m s' R IH Hs]; [exact Hi1 | exact Hi2 |].
  rewrite forallb_forall in Hc. specialize (Hc _ IH).
  rewrite forallb_forall in Hc. apply mem_In. apply Hc. eapply step_in_succs. exact Hs.
Qed.

Theorem reachable_in_states v s : closed v = true -> reachable v s -> In s (states v).
Proof.
  intros Hc R. pose proof (init_in v) as H. destruct H as [H1 H2]. unfold closed in Hc.
  exact (reachable_in_closed v (states v) s Hc H1 H2 R).
Qed.

(* continuations of the running goroutine alone *)
Inductive rpath (v : version) : nat -> st -> st -> Prop :=
| RP0 s : rpath v 0 s s
| RPS n s c s' s'' : rstep v c s = Some s' -> rpath v n s' s'' -> rpath v (S n) s s''.

Lemma rstep_in_rsuccs v c s s' : rstep v c s = Some s' -> In s' (rsuccs v s).
Proof.
  intros H. unfold rsuccs. apply in_flat_map. exists c. split; [destruct c; simpl; auto|]. rewrite H. left. reflexivity.
Qed.

Lemma done_stays v c s s' : is_done s = true -> rstep v c s = Some s' -> s' = s.
Proof. unfold is_done, rstep. destruct s as [rf cf rg p ap]; simpl. destruct p; try discriminate. intros _ H. inversion H. reflexivity. Qed.

Lemma rpath_done v n s s' : is_done s = true -> rpath v n s s' -> s' = s.
Proof.
  intros Hd P. induction P as [|n s c s1 s2 Hs P IH]; [reflexivity|].
  pose proof (done_stays v c s s1 Hd Hs). subst s1. apply IH. exact Hd.
Qed.

Lemma all_paths_done_sound v fuel : forall budget s,
  all_paths_done v fuel budget s = true -> forall n s', fuel <= n -> rpath v n s s' -> is_done s' = true.
Proof.
  (* all_paths_done first asks whether s is done, and a done state stays *)
  induction fuel as [|fuel IH]; intros budget s H n s' Hn P; cbn [all_paths_done] in H;
    (destruct (is_done s) eqn:Hd; [rewrite (rpath_done v n s s' Hd P); exact Hd|]).
  - discriminate.
  - destruct n as [|n]; [lia|]. inversion P as [|n0 s0 c s1 s2 Hs P']; subst.
    assert (Hb: exists b, forallb (all_paths_done v fuel b) (rsuccs v s) = true).
    { destruct (is_exec s); [destruct budget as [|b]; [discriminate|]|]; eauto. }
    destruct Hb as [b Hb]. rewrite forallb_forall in Hb.
    eapply IH; [apply Hb; eapply rstep_in_rsuccs; exact Hs | | exact P']. lia.
Qed.

Definition bounded (v : version) : bool :=
  forallb (fun s => match a s with ADone => all_paths_done v step_bound instr_bound s | _ => true end) (states v).

Lemma bounded_fixed : bounded VFixed = true.
Proof. vm_compute. reflexivity. Qed.

(* The repaired protocol: in every state reachable under any interleaving of Abort (called any
   time after Run has been entered) with the steps of Run, Invoker.acquire, Invoke and the
   child's Run, once Abort has returned every continuation of the running goroutine ends within
   step_bound protocol steps - after at most instr_bound further instructions - whatever the
   script does (plain instructions, callbacks, returning). *)
Theorem abort_never_lost s n s' :
  reachable VFixed s -> a s = ADone -> step_bound <= n -> rpath VFixed n s s' -> is_done s' = true.
Proof.
  intros R Ha Hn P.
  pose proof (reachable_in_states VFixed s closed_fixed R) as Hin.
  pose proof bounded_fixed as Hb. unfold bounded in Hb. rewrite forallb_forall in Hb.
  specialize (Hb _ Hin). rewrite Ha in Hb.
  eapply all_paths_done_sound; eassumption.
Qed.

(* Abort any number of times: a VM whose flag is still set starts the next Run normally *)
Theorem stale_flag_cleared c s : rstep VFixed c init_stale = Some s -> root_flag s = false.
Proof. simpl. intros H. inversion H. reflexivity. Qed.

(* The protocol of the pinned commit loses aborts: a schedule after which Abort has returned and
   the child VM can run any number of instructions *)
Definition lost_schedule : list move :=
  [MRun ChPlain; MRun ChPlain; MRun ChPlain; MRun ChCallback; MRun ChPlain; MRun ChPlain; MRun ChPlain;
   MAbort; MAbort; MRun ChPlain; MRun ChPlain; MRun ChPlain].

Fixpoint spin (n : nat) (s : st) : st :=
  match n with O => s | S n => spin n (run VOrig [MRun ChPlain; MRun ChPlain] s) end.

Lemma run_reachable v ms : forall s, reachable v s -> reachable v (run v ms s).
Proof.
  induction ms as [|m ms IH]; intros s R; [exact R|].
  unfold run. cbn [fold_left]. destruct (step v m s) as [s'|] eqn:E.
  - apply IH. eapply ReachStep; eassumption.
  - apply IH. exact R.
Qed.

(* while the child's flag is clear, a plain instruction of the child leads back to its loop check *)
Lemma spin_idle n s : r s = CLoopCheck -> child_flag s = false -> spin n s = s.
Proof.
  destruct s as [rf cf rg p ap]. cbn [r child_flag]. intros -> ->.
  induction n as [|n IH]; [reflexivity | exact IH].
Qed.

Theorem orig_protocol_loses_abort :
  let s := run VOrig lost_schedule init in
  reachable VOrig s /\ a s = ADone /\ forall n, is_done (spin n s) = false.
Proof.
  cbv zeta. split; [apply run_reachable; apply ReachInit|].
  replace (run VOrig lost_schedule init) with (mkSt true false true CLoopCheck ADone)
    by (vm_compute; reflexivity).
  split; [reflexivity|]. intros n. rewrite spin_idle; reflexivity.
Qed.

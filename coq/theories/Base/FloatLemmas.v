(* Facts about SpecFloat comparison and conversion used by the operator laws. *)
From Coq Require Import ZArith Lia Floats.SpecFloat.
From Ugo Require Import Base.GoFloat.
Local Open Scope Z_scope.

Lemma SFcompare_antisym a b :
  SFcompare b a = match SFcompare a b with Some c => Some (CompOpp c) | None => None end.
Proof.
  destruct a as [sa|sa| |sa ma ea], b as [sb|sb| |sb mb eb]; simpl; try reflexivity;
    try (destruct sa; reflexivity); try (destruct sb; reflexivity);
    try (destruct sa, sb; reflexivity).
  (* finite, same sign: by exponent, then by mantissa *)
  destruct sa, sb; try reflexivity;
    rewrite (Z.compare_antisym ea eb); destruct (ea ?= eb); simpl; try reflexivity;
    rewrite (Pos.compare_cont_antisym ma mb Eq); reflexivity.
Qed.

Lemma feqb_sym a b : feqb a b = feqb b a.
Proof.
  unfold feqb, SFeqb. rewrite (SFcompare_antisym a b).
  destruct (SFcompare a b) as [[]|]; reflexivity.
Qed.

(* SFcompare where neither operand is NaN; the Eq given otherwise means nothing *)
Definition fcompare (a b : spec_float) : comparison :=
  match SFcompare a b with Some c => c | None => Eq end.

Lemma SFcompare_fcompare a b : is_nan a = false -> is_nan b = false -> SFcompare a b = Some (fcompare a b).
Proof. destruct a, b; intros; try discriminate; reflexivity. Qed.

Lemma fcompare_antisym a b : fcompare b a = CompOpp (fcompare a b).
Proof. unfold fcompare. rewrite (SFcompare_antisym a b). destruct (SFcompare a b); reflexivity. Qed.

Lemma fltb_fcompare a b : fltb a b = match fcompare a b with Lt => true | _ => false end.
Proof. unfold fltb, SFltb, fcompare. destruct (SFcompare a b) as [[]|]; reflexivity. Qed.

Lemma fleb_spec a b : fleb a b = (fltb a b || feqb a b)%bool.
Proof. unfold fleb, fltb, feqb, SFleb, SFltb, SFeqb. destruct (SFcompare a b) as [[]|]; reflexivity. Qed.

Lemma fleb_fcompare a b :
  is_nan a = false -> is_nan b = false -> fleb a b = match fcompare a b with Gt => false | _ => true end.
Proof. intros Ha Hb. unfold fleb, SFleb. rewrite (SFcompare_fcompare a b Ha Hb). reflexivity. Qed.

Lemma feqb_fcompare a b :
  is_nan a = false -> is_nan b = false -> feqb a b = match fcompare a b with Eq => true | _ => false end.
Proof. intros Ha Hb. unfold feqb, SFeqb. rewrite (SFcompare_fcompare a b Ha Hb). reflexivity. Qed.

Section Iter.
  Context {A : Type} (f : A -> A) (P : A -> Prop).
  Lemma iter_pos_inv n x : (forall y, P y -> P (f y)) -> P x -> P (iter_pos f n x).
  Proof.
    intros Hf. revert x. induction n as [n IH|n IH|]; simpl; intros x Hx.
    - apply IH, IH, Hf, Hx.
    - apply IH, IH, Hx.
    - apply Hf, Hx.
  Qed.
End Iter.

Lemma shr_1_nonneg mrs : 0 <= shr_m mrs -> 0 <= shr_m (shr_1 mrs).
Proof.
  destruct mrs as [m r s]. simpl. destruct m as [|p|p]; simpl; intros H; try lia.
  - destruct p; simpl; lia.
Qed.

Lemma shr_nonneg mrs e n : 0 <= shr_m mrs -> 0 <= shr_m (fst (shr mrs e n)).
Proof.
  intros H. unfold shr. destruct n; simpl; try assumption.
  apply (iter_pos_inv shr_1 (fun x => 0 <= shr_m x)); [apply shr_1_nonneg | exact H].
Qed.

Lemma shr_record_of_loc_m m l : shr_m (shr_record_of_loc m l) = m.
Proof. destruct l as [|[]]; reflexivity. Qed.

Lemma shr_fexp_nonneg prec emax m e l : 0 <= m -> 0 <= shr_m (fst (shr_fexp prec emax m e l)).
Proof. intros H. unfold shr_fexp. apply shr_nonneg. rewrite shr_record_of_loc_m. exact H. Qed.

Lemma round_nearest_even_nonneg m l : 0 <= m -> 0 <= round_nearest_even m l.
Proof. intros H. destruct l as [|[]]; simpl; try lia. destruct (Z.even m); lia. Qed.

(* binary_round_aux gives NaN only for a negative mantissa, and a non-negative one stays so through shr_fexp and
   round_nearest_even (the lemmas above) *)
Lemma binary_round_aux_not_nan prec emax sx mx ex lx :
  0 <= mx -> is_nan (binary_round_aux prec emax sx mx ex lx) = false.
Proof.
  intros H. unfold binary_round_aux.
  pose proof (shr_fexp_nonneg prec emax mx ex lx H) as H1.
  destruct (shr_fexp prec emax mx ex lx) as [mrs' e'] eqn:E1. simpl in H1.
  pose proof (shr_fexp_nonneg prec emax (round_nearest_even (shr_m mrs') (loc_of_shr_record mrs')) e' loc_Exact
                (round_nearest_even_nonneg _ _ H1)) as H2.
  destruct (shr_fexp prec emax (round_nearest_even (shr_m mrs') (loc_of_shr_record mrs')) e' loc_Exact) as [mrs'' e''] eqn:E2.
  simpl in H2. destruct (shr_m mrs'') as [|p|p]; try reflexivity; try lia.
  destruct (Zle_bool e'' (emax - prec)); reflexivity.
Qed.

Lemma binary_normalize_not_nan prec emax m e s : is_nan (binary_normalize prec emax m e s) = false.
Proof.
  unfold binary_normalize. destruct m as [|p|p]; try reflexivity; unfold binary_round;
    destruct (shl_align _ _ _) as [mz ez]; apply binary_round_aux_not_nan; lia.
Qed.

Lemma f64_of_Z_not_nan z : is_nan (f64_of_Z z) = false.
Proof. apply binary_normalize_not_nan. Qed.

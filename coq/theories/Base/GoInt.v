(* Go fixed-width integer arithmetic over Z with explicit wrap-around. *)
From Coq Require Import ZArith Lia.
Local Open Scope Z_scope.

Definition wrap_u (bits z : Z) : Z := z mod 2 ^ bits.
Definition wrap_s (bits z : Z) : Z :=
  let m := z mod 2 ^ bits in
  if m <? 2 ^ (bits - 1) then m else m - 2 ^ bits.

Definition i64 (z : Z) : Z := wrap_s 64 z.
Definition u64 (z : Z) : Z := wrap_u 64 z.
Definition i32 (z : Z) : Z := wrap_s 32 z.
Definition u32 (z : Z) : Z := wrap_u 32 z.
Definition i16 (z : Z) : Z := wrap_s 16 z.
Definition u16 (z : Z) : Z := wrap_u 16 z.
Definition i8 (z : Z) : Z := wrap_s 8 z.
Definition u8 (z : Z) : Z := wrap_u 8 z.

Definition in_i64 (z : Z) : bool := (- 2 ^ 63 <=? z) && (z <? 2 ^ 63).
Definition in_u64 (z : Z) : bool := (0 <=? z) && (z <? 2 ^ 64).
Definition in_i32 (z : Z) : bool := (- 2 ^ 31 <=? z) && (z <? 2 ^ 31).
Definition in_u8 (z : Z) : bool := (0 <=? z) && (z <? 2 ^ 8).
Definition in_range_s (bits z : Z) : bool := (- 2 ^ (bits-1) <=? z) && (z <? 2 ^ (bits-1)).
Definition in_range_u (bits z : Z) : bool := (0 <=? z) && (z <? 2 ^ bits).

Lemma pow2_half bits : 0 < bits -> 2 ^ bits = 2 * 2 ^ (bits - 1) /\ 0 < 2 ^ (bits - 1).
Proof.
  intros Hb. split; [|apply Z.pow_pos_nonneg; lia].
  replace bits with (Z.succ (bits - 1)) at 1 by lia. apply Z.pow_succ_r. lia.
Qed.

Lemma wrap_s_id bits z : 0 < bits -> in_range_s bits z = true -> wrap_s bits z = z.
Proof.
  unfold in_range_s, wrap_s. intros Hb H. destruct (pow2_half bits Hb) as [Hp Hpos].
  destruct (Z_lt_le_dec z 0) as [Hn|Hn].
  - rewrite <- (Z.mod_unique z (2 ^ bits) (-1) (z + 2 ^ bits)) by lia.
    destruct (Z.ltb_spec (z + 2 ^ bits) (2 ^ (bits - 1))); lia.
  - rewrite Z.mod_small by lia. destruct (Z.ltb_spec z (2 ^ (bits - 1))); lia.
Qed.

Lemma wrap_u_id bits z : in_range_u bits z = true -> wrap_u bits z = z.
Proof. unfold in_range_u, wrap_u. intros H. apply Z.mod_small. lia. Qed.

Lemma i64_id z : in_i64 z = true -> i64 z = z.
Proof. intros H. apply wrap_s_id; [lia | exact H]. Qed.
Lemma u64_id z : in_u64 z = true -> u64 z = z.
Proof. intros H. apply wrap_u_id. exact H. Qed.
Lemma i32_id z : in_i32 z = true -> i32 z = z.
Proof. intros H. apply wrap_s_id; [lia | exact H]. Qed.

Lemma wrap_s_range bits z : 0 < bits -> in_range_s bits (wrap_s bits z) = true.
Proof.
  intros Hb. unfold wrap_s, in_range_s. destruct (pow2_half bits Hb) as [Hp Hpos].
  pose proof (Z.mod_pos_bound z (2 ^ bits) ltac:(lia)) as Hm.
  destruct (Z.ltb_spec (z mod 2 ^ bits) (2 ^ (bits - 1))); lia.
Qed.

Lemma wrap_u_range bits z : 0 <= bits -> in_range_u bits (wrap_u bits z) = true.
Proof.
  intros Hb. unfold wrap_u, in_range_u.
  pose proof (Z.mod_pos_bound z (2 ^ bits) ltac:(apply Z.pow_pos_nonneg; lia)) as Hm. lia.
Qed.

Lemma i64_range z : in_i64 (i64 z) = true.
Proof. apply (wrap_s_range 64). lia. Qed.
Lemma u64_range z : in_u64 (u64 z) = true.
Proof. apply (wrap_u_range 64). lia. Qed.
Lemma i32_range z : in_i32 (i32 z) = true.
Proof. apply (wrap_s_range 32). lia. Qed.

(* Facts about lists that the standard library of Coq 8.16 does not have. *)
From Coq Require Import List Arith.
Import ListNotations.

Lemma firstn_app_len {A} (l r : list A) n : n = length l -> firstn n (l ++ r) = l.
Proof. intros ->. rewrite firstn_app, Nat.sub_diag, firstn_all. simpl. apply app_nil_r. Qed.

Lemma skipn_app_len {A} (l r : list A) n : n = length l -> skipn n (l ++ r) = r.
Proof. intros ->. rewrite skipn_app, Nat.sub_diag, skipn_all. reflexivity. Qed.

Lemma Forall2_map_l {A A' B} (f : A -> A') (R : A' -> B -> Prop) l l' :
  Forall2 (fun a b => R (f a) b) l l' -> Forall2 R (map f l) l'.
Proof. induction 1; cbn [map]; constructor; assumption. Qed.

(* "all elements satisfy P" written as a local fix, the form a nested Fixpoint over a tree has to take *)
Lemma all_Forall {A} (P : A -> Prop) l :
  (fix all (l : list A) : Prop := match l with [] => True | x :: r => P x /\ all r end) l <-> Forall P l.
Proof.
  induction l as [|x r IH]; [split; [constructor | exact (fun _ => I)]|].
  rewrite Forall_cons_iff, <- IH. reflexivity.
Qed.

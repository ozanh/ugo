(* Outcome type shared by every model function that mirrors Go code.
   GoPanic marks exactly the places where the Go code would panic; totality
   theorems are statements "is_panic _ = false". *)
From Coq Require Import List.
Import ListNotations.

Inductive panic_kind :=
| PkIndex        (* index / slice bounds out of range *)
| PkDivZero      (* integer divide by zero *)
| PkShift        (* negative shift amount *)
| PkAssert       (* failed type assertion *)
| PkMakeSlice    (* makeslice: len out of range *)
| PkNilMap       (* write to nil map *)
| PkExplicit     (* panic(err) in the code *)
| PkOverflow.    (* strings.Repeat etc. *)

(* A uGO error value: Name and Message (as byte strings). *)
Record uerror := mkErr { err_name : list Byte.byte; err_msg : list Byte.byte }.

Inductive res (A : Type) :=
| Ok (a : A)
| Err (e : uerror)
| GoPanic (k : panic_kind)
| OutOfFuel.
Arguments Ok {A} a.
Arguments Err {A} e.
Arguments GoPanic {A} k.
Arguments OutOfFuel {A}.

Definition bind {A B} (r : res A) (f : A -> res B) : res B :=
  match r with
  | Ok a => f a
  | Err e => Err e
  | GoPanic k => GoPanic k
  | OutOfFuel => OutOfFuel
  end.

Notation "'do' x <- r ; k" := (bind r (fun x => k))
  (at level 200, x pattern, r at level 100, k at level 200, right associativity).

Definition is_panic {A} (r : res A) : bool :=
  match r with GoPanic _ => true | _ => false end.

Definition is_ok {A} (r : res A) : bool :=
  match r with Ok _ => true | _ => false end.

Fixpoint mapM {A B} (f : A -> res B) (l : list A) : res (list B) :=
  match l with
  | [] => Ok []
  | x :: xs => do y <- f x; do ys <- mapM f xs; Ok (y :: ys)
  end.

Lemma bind_ok {A B} (r : res A) (f : A -> res B) b :
  bind r f = Ok b -> exists a, r = Ok a /\ f a = Ok b.
Proof. destruct r; simpl; intros H; try discriminate. eauto. Qed.

Lemma bind_no_panic_at {A B} (r : res A) (f : A -> res B) :
  is_panic r = false -> (forall a, r = Ok a -> is_panic (f a) = false) -> is_panic (bind r f) = false.
Proof. destruct r; simpl; auto. Qed.

Lemma bind_no_panic {A B} (r : res A) (f : A -> res B) :
  is_panic r = false -> (forall a, is_panic (f a) = false) -> is_panic (bind r f) = false.
Proof. intros Hr Hf. apply bind_no_panic_at; [exact Hr | intros a _; apply Hf]. Qed.

Lemma if_no_panic {A} (c : bool) (a b : res A) :
  is_panic a = false -> is_panic b = false -> is_panic (if c then a else b) = false.
Proof. destruct c; auto. Qed.

(* no_panic: a function put together from bind, if and match (let on a pair, cases of a list) does not
   panic if its parts do not.  The files add what they prove of the parts.  A goal has one hint that fits
   (for an if the lemma comes first: cheaper than the case split), so auto descends without search and
   its depth only has to exceed the nesting of the function: 20 where the default 5 does not. *)
Create HintDb no_panic.
#[export] Hint Resolve bind_no_panic if_no_panic : no_panic.
#[export] Hint Extern 3 (is_panic (match ?x with _ => _ end) = false) => destruct x : no_panic.

Lemma mapM_no_panic {A B} (f : A -> res B) l :
  Forall (fun x => is_panic (f x) = false) l -> is_panic (mapM f l) = false.
Proof.
  induction 1; simpl; auto with no_panic.
Qed.

Lemma mapM_map_id {A B} (f : B -> res A) (g : A -> B) l :
  Forall (fun x => f (g x) = Ok x) l -> mapM f (map g l) = Ok l.
Proof. induction 1 as [|x l Hx _ IH]; simpl; [reflexivity|]. rewrite Hx. simpl. rewrite IH. reflexivity. Qed.

(* the list step of an induction showing that a conversion f succeeds on a tree: the test P and the relation R to
   the input stand for what that induction also states of the result (to_interface_to_object: plain, and geq) *)
Lemma mapM_exists {A B} (f : A -> res B) (P : B -> bool) (R : B -> A -> Prop) l :
  Forall (fun x => exists y, f x = Ok y /\ P y = true /\ R y x) l ->
  exists r, mapM f l = Ok r /\ forallb P r = true /\ Forall2 R r l.
Proof.
  induction 1 as [|x l (y & Ey & Py & Ry) _ (r & Er & Pr & Rr)]; simpl.
  - exists []. repeat split. constructor.
  - exists (y :: r). rewrite Ey. simpl. rewrite Er. simpl. rewrite Py, Pr. repeat split. constructor; assumption.
Qed.

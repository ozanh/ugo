(* Generated argument adapters (C19): an adapter whose literal argument indexes lie below its arity
   test (spec_ok) never panics and answers the arity exactly; the regenerated table satisfies spec_ok
   (adapters_ok, by evaluation). *)
From Coq Require Import List ZArith Bool Lia.
From Ugo Require Import Base.Res Gen.Adapters Builtin.Adapter.
Local Open Scope Z_scope.

Lemma call_get_in_range {A} (args vargs : list A) n :
  0 <= n < Z.of_nat (List.length args + List.length vargs) -> exists v, call_get args vargs n = Ok v.
Proof.
  intros H. unfold call_get. destruct (Z.ltb_spec n 0); [lia|].
  destruct (nth_error (args ++ vargs) (Z.to_nat n)) as [v|] eqn:E; [eauto|].
  apply nth_error_None in E. rewrite app_length in E. lia.
Qed.

Lemma call_get_no_panic {A} (args vargs : list A) n :
  0 <= n < Z.of_nat (List.length args + List.length vargs) -> is_panic (call_get args vargs n) = false.
Proof. intros H. destruct (call_get_in_range args vargs n H) as [v ->]. reflexivity. Qed.

Lemma run_params_no_panic ps args vargs n :
  Z.of_nat (List.length args + List.length vargs) = n ->
  forallb (fun p : param => let '((_, idx), (_, tnidx)) := p in (0 <=? idx) && (idx <? n) && (0 <=? tnidx) && (tnidx <? n)) ps = true ->
  is_panic (run_params ps args vargs) = false.
Proof.
  intros Hn. induction ps as [|[[conv idx] [[pos want] tnidx]] rest IH]; intros H; [reflexivity|].
  cbn [forallb] in H. apply andb_true_iff in H as [Hp Hrest]. cbn [run_params].
  apply bind_no_panic; [apply call_get_no_panic; lia|]. intros v.
  destruct (conv_accepts conv v) as [[|]|]; [apply IH; exact Hrest | | reflexivity].
  apply bind_no_panic; [apply call_get_no_panic; lia | reflexivity].
Qed.

(* an adapter whose indexes are all below its required count never panics, for any argument list,
   however it is split between fixed and variadic arguments *)
Theorem adapter_total (s : spec) args vargs : spec_ok s = true -> is_panic (run_adapter s args vargs) = false.
Proof.
  destruct s as [[ex n] [gets ps]]. unfold spec_ok, run_adapter. intros H. apply andb_true_iff in H as [Hg Hp].
  destruct (Z.eqb_spec (Z.of_nat (List.length args + List.length vargs)) n) as [E|E]; cbn [negb]; [|reflexivity].
  apply bind_no_panic; [exact (run_params_no_panic ps args vargs n E Hp)|]. intros [o|]; [reflexivity|].
  apply bind_no_panic; [|reflexivity]. apply mapM_no_panic, Forall_forall. intros g Hin.
  rewrite forallb_forall in Hg. specialize (Hg g Hin). apply call_get_no_panic. lia.
Qed.

(* the table regenerated from the current source satisfies the index condition *)
Lemma adapters_ok : forallb (fun e => spec_ok (snd e)) adapters = true.
Proof. vm_compute. reflexivity. Qed.

Theorem adapters_never_panic name s args vargs :
  In (name, s) adapters -> is_panic (run_adapter s args vargs) = false.
Proof.
  intros Hin. apply adapter_total.
  pose proof adapters_ok as H. rewrite forallb_forall in H. exact (H _ Hin).
Qed.

Lemma run_params_not_wrong_num ps args vargs o :
  run_params ps args vargs = Ok (Some o) -> forall w g, o <> OWrongNum w g.
Proof.
  induction ps as [|[[conv idx] [[pos want] tnidx]] rest IH]; intros Ho w g; [discriminate|].
  cbn [run_params] in Ho. apply bind_ok in Ho as (v & _ & Ho).
  destruct (conv_accepts conv v) as [[|]|].
  - apply IH. exact Ho.
  - apply bind_ok in Ho as (t & _ & [= <-]). discriminate.
  - injection Ho as <-. discriminate.
Qed.

(* the arity answer: a wrong-number-of-arguments error exactly when the count differs *)
Theorem adapter_arity (s : spec) args vargs :
  let n := snd (fst s) in
  let k := Z.of_nat (List.length args + List.length vargs) in
  (k <> n -> run_adapter s args vargs = Ok (OWrongNum n k)) /\
  (k = n -> forall w g, run_adapter s args vargs <> Ok (OWrongNum w g)).
Proof.
  destruct s as [[ex n] [gets ps]]. cbn [fst snd]. unfold run_adapter. split; intros H.
  - destruct (Z.eqb_spec (Z.of_nat (List.length args + List.length vargs)) n); [contradiction|reflexivity].
  - intros w g. rewrite H, Z.eqb_refl. cbn [negb]. intros Hr.
    apply bind_ok in Hr as ([o|] & E & Hr).
    + injection Hr as ->. exact (run_params_not_wrong_num ps args vargs _ E w g eq_refl).
    + apply bind_ok in Hr as (_ & _ & Hr). discriminate Hr.
Qed.

(* every entry point of an exported callable which the tables route through an adapter is guarded
   by one of the table, hence never panics before its body *)
Theorem callable_adapter_never_panics cid ex s args vargs :
  callable_adapter cid ex = Some s -> is_panic (run_adapter s args vargs) = false.
Proof.
  unfold callable_adapter, find_adapter. destruct (find _ callables) as [[c [v vx]]|]; [|discriminate].
  destruct (find _ adapters) as [[name s0]|] eqn:E; [|discriminate]. intros H. inversion H; subst.
  apply find_some in E as [Hin _]. cbn [snd]. eapply adapters_never_panic. exact Hin.
Qed.

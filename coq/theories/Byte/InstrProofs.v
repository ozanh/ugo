(* MakeInstruction / ReadOperands: totality on table opcodes and round trip (C05, C11). *)
From Coq Require Import List ZArith Bool Lia.
From Ugo Require Import Base.Res Base.ListFacts Gen.OpTable Byte.Instr.
Import ListNotations.
Local Open Scope Z_scope.

Lemma be_bytes_nat_length w v : List.length (be_bytes_nat w v) = w.
Proof. induction w; simpl; congruence. Qed.

Lemma be_value_aux l acc : fold_left (fun a b => a * 256 + b) l acc = acc * 256 ^ Z.of_nat (List.length l) + be_value l.
Proof.
  unfold be_value. revert acc. induction l as [|x xs IH]; intros acc.
  - simpl. lia.
  - cbn [fold_left List.length]. rewrite IH. rewrite (IH (0 * 256 + x)).
    rewrite Nat2Z.inj_succ, Z.pow_succ_r by lia. ring.
Qed.

Lemma be_value_cons x xs : be_value (x :: xs) = x * 256 ^ Z.of_nat (List.length xs) + be_value xs.
Proof. unfold be_value at 1. cbn [fold_left]. rewrite be_value_aux. lia. Qed.

Lemma be_value_be_bytes w v : be_value (be_bytes_nat w v) = v mod 256 ^ Z.of_nat w.
Proof.
  induction w as [|w IH]; [rewrite Z.mod_1_r; reflexivity|].
  cbn [be_bytes_nat]. rewrite be_value_cons, be_bytes_nat_length, IH, Nat2Z.inj_succ, Z.pow_succ_r by lia.
  assert (256 ^ Z.of_nat w <> 0) by (apply Z.pow_nonzero; lia).
  rewrite (Z.mul_comm 256), Z.rem_mul_r by lia. ring.
Qed.

Lemma sumz_cons w ws : sumz (w :: ws) = w + sumz ws.
Proof. reflexivity. Qed.
Lemma sumz_const c l : sumz (map (fun _ : Z => c) l) = c * Z.of_nat (List.length l).
Proof. induction l as [|x l IH]; cbn [map List.length]; [cbn; lia|]. rewrite sumz_cons, IH. lia. Qed.
Lemma sumz_all c l : l = map (fun _ => c) l -> sumz l = c * Z.of_nat (List.length l).
Proof. intro H. rewrite H, sumz_const, map_length. reflexivity. Qed.
Lemma sumz_nonneg l : Forall (fun w => 0 <= w) l -> 0 <= sumz l.
Proof. induction 1 as [|x l Hx _ IH]; [cbn; lia|]. rewrite sumz_cons. lia. Qed.

Lemma read_operands_length {ws l args} : read_operands ws l = Some args -> List.length args = List.length ws.
Proof.
  revert l args. induction ws as [|w ws IH]; intros l args H; cbn [read_operands] in H; [injection H as <-; reflexivity|].
  destruct (Nat.ltb _ _); [discriminate|].
  destruct (read_operands ws _) as [rest|] eqn:Er; [|discriminate]. injection H as <-. cbn [List.length]. rewrite (IH _ _ Er). reflexivity.
Qed.

Lemma read_operands_split {ws l args} : Forall (fun w => 0 <= w) ws -> read_operands ws l = Some args ->
  exists body rest, l = body ++ rest /\ Z.of_nat (List.length body) = sumz ws /\
    forall r, read_operands ws (body ++ r) = Some args.
Proof.
  revert l args. induction ws as [|w ws IH]; intros l args Hn H; [exists [], l; repeat split; intro r; exact H|].
  inversion Hn as [|? ? Hw Hws]; subst. cbn [read_operands] in H.
  destruct (Nat.ltb_spec (List.length (firstn (Z.to_nat w) l)) (Z.to_nat w)) as [|Hl]; [discriminate|].
  destruct (read_operands ws (skipn (Z.to_nat w) l)) as [args'|] eqn:Er; [|discriminate]. injection H as <-.
  destruct (IH _ _ Hws Er) as (body & rest & El & Hlen & Hr).
  assert (Hpre: List.length (firstn (Z.to_nat w) l) = Z.to_nat w) by (rewrite firstn_length in *; lia).
  exists (firstn (Z.to_nat w) l ++ body), rest. split; [|split].
  - rewrite <- app_assoc, <- El. symmetry. apply firstn_skipn.
  - rewrite app_length, Nat2Z.inj_add, Hlen, Hpre, sumz_cons. lia.
  - intro r. rewrite <- app_assoc. cbn [read_operands].
    rewrite firstn_app_len, skipn_app_len, Hpre, Nat.ltb_irrefl, Hr by (symmetry; exact Hpre). reflexivity.
Qed.

(* the operand bytes that make_instruction writes *)
Definition encode_operands (ws args : list Z) : list Z :=
  flat_map (fun wa => be_bytes (fst wa) (snd wa)) (combine ws args).

Lemma encode_operands_cons w ws a args : encode_operands (w :: ws) (a :: args) = be_bytes w a ++ encode_operands ws args.
Proof. reflexivity. Qed.

Lemma read_operands_encoded ws : forall args rest,
  List.length ws = List.length args ->
  (forall w a, In (w, a) (combine ws args) -> 0 <= w /\ 0 <= a < 256 ^ w) ->
  read_operands ws (encode_operands ws args ++ rest) = Some args.
Proof.
  induction ws as [|w ws IH]; intros [|a args] rest Hl Hr; try discriminate; [reflexivity|].
  destruct (Hr w a (or_introl eq_refl)) as [Hw Ha].
  rewrite encode_operands_cons, <- app_assoc. unfold be_bytes. cbn [read_operands].
  pose proof (be_bytes_nat_length (Z.to_nat w) a) as Hlen.
  rewrite skipn_app_len, firstn_app_len, Hlen, Nat.ltb_irrefl by (symmetry; exact Hlen).
  rewrite IH by (try (intros; apply Hr; right; assumption); simpl in Hl; lia).
  rewrite be_value_be_bytes, Z2Nat.id, Z.mod_small by lia. reflexivity.
Qed.

Lemma encode_operands_length ws : forall args, List.length ws = List.length args -> Forall (fun w => 0 <= w) ws ->
  Z.of_nat (List.length (encode_operands ws args)) = sumz ws.
Proof.
  induction ws as [|w ws IH]; intros [|a args] Hl Hws; try discriminate; [reflexivity|].
  inversion Hws as [|? ? Hw Hws']; subst. rewrite encode_operands_cons. unfold be_bytes.
  rewrite app_length, be_bytes_nat_length, Nat2Z.inj_add, Z2Nat.id by lia.
  rewrite IH by (try assumption; simpl in Hl; lia). reflexivity.
Qed.

Lemma max_operand_lt w a : (w = 1 \/ w = 2 \/ w = 4) -> a <= max_operand w -> a < 256 ^ w.
Proof. intros [-> | [-> | ->]]; unfold max_operand; simpl; lia. Qed.

(* operand widths of the regenerated table are 1, 2 or 4 *)
Definition widths_ok : bool :=
  forallb (fun e => forallb (fun w => (w =? 1) || (w =? 2) || (w =? 4)) (snd e)) opcodes_v2.
Lemma widths_ok_true : widths_ok = true.
Proof. vm_compute. reflexivity. Qed.

Lemma widths_of_ok {op ws} : widths_of opcodes_v2 op = Some ws -> Forall (fun w => w = 1 \/ w = 2 \/ w = 4) ws.
Proof.
  unfold widths_of. destruct (op <? 0); [discriminate|]. intros H.
  apply nth_error_In in H. apply in_map_iff in H as [[n ws'] [E Hin]]. simpl in E. subst ws'.
  pose proof widths_ok_true as Hw. unfold widths_ok in Hw. rewrite forallb_forall in Hw.
  specialize (Hw _ Hin). simpl in Hw. rewrite forallb_forall in Hw.
  apply Forall_forall. intros w Hwin. specialize (Hw _ Hwin). lia.
Qed.

(* MakeInstruction never panics on an opcode of the table: a wrong operand count or an
   out-of-range operand is an error *)
Theorem make_instruction_total tbl op args :
  0 <= op < Z.of_nat (List.length tbl) -> is_panic (make_instruction tbl op args) = false.
Proof.
  intros Hop. unfold make_instruction, widths_of.
  destruct (Z.ltb_spec op 0); [lia|].
  destruct (nth_error (map snd tbl) (Z.to_nat op)) as [ws|] eqn:E.
  - destruct (negb _); [reflexivity|]. destruct (existsb _ _); reflexivity.
  - apply nth_error_None in E. rewrite map_length in E. lia.
Qed.

Lemma existsb_false_In {A} {f : A -> bool} {l x} : existsb f l = false -> In x l -> f x = false.
Proof.
  intros H Hin. destruct (f x) eqn:E; [|reflexivity].
  rewrite <- H. symmetry. apply existsb_exists. exists x. split; assumption.
Qed.

Lemma make_instruction_accepts tbl op ws args :
  widths_of tbl op = Some ws -> List.length ws = List.length args ->
  (forall w a, In (w, a) (combine ws args) -> 0 <= a <= max_operand w) ->
  make_instruction tbl op args = Ok (op :: encode_operands ws args).
Proof.
  intros Hw Hl Hr. unfold make_instruction. rewrite Hw, Hl, Nat.eqb_refl. cbn [negb].
  destruct (existsb _ _) eqn:Ex; [|reflexivity].
  apply existsb_exists in Ex as ([w a] & Hin & Hbad). specialize (Hr w a Hin). cbn [fst snd] in Hbad. lia.
Qed.

Lemma make_instruction_ok {op args bytes} :
  make_instruction opcodes_v2 op args = Ok bytes ->
  exists ws, widths_of opcodes_v2 op = Some ws /\ bytes = op :: encode_operands ws args /\
             (forall rest, read_operands ws (encode_operands ws args ++ rest) = Some args) /\
             Z.of_nat (List.length (encode_operands ws args)) = sumz ws.
Proof.
  unfold make_instruction. destruct (widths_of opcodes_v2 op) as [ws|] eqn:Ew; [|discriminate].
  destruct (Nat.eqb (List.length ws) (List.length args)) eqn:El; [|discriminate]. cbn [negb].
  destruct (existsb _ _) eqn:Ex; [discriminate|]. intros [= <-].
  apply Nat.eqb_eq in El. pose proof (widths_of_ok Ew) as Hws. rewrite Forall_forall in Hws.
  exists ws. repeat split.
  - intro rest. apply read_operands_encoded; [exact El|]. intros w a Hin.
    pose proof (Hws w (in_combine_l _ _ _ _ Hin)) as Hw.
    (* MakeInstruction accepted the operand: it is neither above max_operand w nor negative *)
    apply (existsb_false_In Ex) in Hin. cbn [fst snd] in Hin.
    pose proof (max_operand_lt w a Hw ltac:(lia)). lia.
  - apply encode_operands_length; [exact El|]. apply Forall_forall. intros w Hin. specialize (Hws w Hin). lia.
Qed.

Theorem make_instruction_roundtrip op args bytes rest :
  make_instruction opcodes_v2 op args = Ok bytes ->
  exists ws body, widths_of opcodes_v2 op = Some ws /\ bytes = op :: body /\
                  read_operands ws (body ++ rest) = Some args /\
                  Z.of_nat (List.length body) = sumz ws.
Proof. intro H. destruct (make_instruction_ok H) as (ws & Hw & Hb & Hr & Hl). exists ws, (encode_operands ws args). auto. Qed.

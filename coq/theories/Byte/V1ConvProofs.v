(* Property C11: the version 1 -> version 2 converter relocates every jump operand and every
   source map key: the converted function denotes the same abstract program (conv_relocates).
   A byte string is related to the list ds of its instructions (stream); what the two passes
   return is a function of ds (ends_of; conv_ds, smap), and relocation is arithmetic on ds
   (reloc_index). *)
From Coq Require Import List ZArith Bool Lia.
From Ugo Require Import Base.Res Base.ListFacts Gen.OpTable Byte.Instr Byte.InstrProofs Byte.V1Conv.
Import ListNotations.
Local Open Scope Z_scope.

(* what the converter relies on of the two tables, decided opcode by opcode *)
Definition tbl_rel_at (i : nat) : bool :=
  let op := Z.of_nat i in
  match widths_of opcodes_v1 op, widths_of opcodes_v2 op with
  | Some w1, Some w2 =>
      forallb (fun w => 0 <=? w) w1 &&
      if jump_class op
      then (if list_eq_dec Z.eq_dec w1 (map (fun _ => 2) w1) then true else false) &&
           (if list_eq_dec Z.eq_dec w2 (map (fun _ => 4) w1) then true else false)
      else if list_eq_dec Z.eq_dec w1 w2 then true else false
  | None, None => true
  | _, _ => false
  end.
Lemma tbl_rel_true : forallb tbl_rel_at (seq 0 (List.length opcodes_v1)) = true.
Proof. vm_compute. reflexivity. Qed.

Lemma widths_range {tbl op ws} : widths_of tbl op = Some ws -> 0 <= op /\ (Z.to_nat op < List.length tbl)%nat.
Proof.
  unfold widths_of. destruct (Z.ltb_spec op 0) as [Hlt|Hge]; [discriminate|]. intro H. split; [assumption|].
  assert (Hn: nth_error (map snd tbl) (Z.to_nat op) <> None) by congruence.
  apply nth_error_Some in Hn. rewrite map_length in Hn. exact Hn.
Qed.

Lemma tbl_rel {op ws1} : widths_of opcodes_v1 op = Some ws1 ->
  Forall (fun w => 0 <= w) ws1 /\
  if jump_class op then ws1 = map (fun _ => 2) ws1 /\ widths_of opcodes_v2 op = Some (map (fun _ => 4) ws1)
  else widths_of opcodes_v2 op = Some ws1.
Proof.
  intro H. destruct (widths_range H) as [H0 Hr].
  assert (T: tbl_rel_at (Z.to_nat op) = true) by (eapply forallb_forall; [exact tbl_rel_true | apply in_seq; lia]).
  unfold tbl_rel_at in T. rewrite Z2Nat.id, H in T by lia.
  destruct (widths_of opcodes_v2 op) as [w2|]; [|discriminate].
  apply andb_true_iff in T as [Tn T]. split.
  - apply Forall_forall. intros w Hw. rewrite forallb_forall in Tn. apply Z.leb_le. apply Tn. exact Hw.
  - destruct (jump_class op).
    + destruct (list_eq_dec Z.eq_dec ws1 _) as [E1|]; [|discriminate]. destruct (list_eq_dec Z.eq_dec w2 _) as [->|]; [|discriminate].
      split; [exact E1 | reflexivity].
    + destruct (list_eq_dec Z.eq_dec ws1 w2) as [->|]; [reflexivity | discriminate].
Qed.

(* A decoded instruction d is (offset, opcode, operands).  In version 1 its operands take opw bytes
   and are opn in number, d takes isz d bytes, and the conversion makes it longer by grow d bytes (2 for
   each operand of a jump-class instruction).  The functions on a list ds of instructions take the
   offset off at which ds starts and the growth total of what stands before it: chain says that the
   offsets are consecutive from off, endoff and tot are offset and growth at the end of ds, newoffs
   the offsets after the conversion. *)
Definition dinst := (Z * Z * list Z)%type.
Definition d_off (d : dinst) : Z := fst (fst d).
Definition d_op (d : dinst) : Z := snd (fst d).
Definition d_args (d : dinst) : list Z := snd d.
Definition opw (op : Z) : Z := match widths_of opcodes_v1 op with Some ws => sumz ws | None => 0 end.
Definition opn (op : Z) : Z := match widths_of opcodes_v1 op with Some ws => Z.of_nat (List.length ws) | None => 0 end.
Definition isz (d : dinst) : Z := 1 + opw (d_op d).
Definition grow (d : dinst) : Z := if jump_class (d_op d) then 2 * opn (d_op d) else 0.

Fixpoint chain (ds : list dinst) (off : Z) : Prop :=
  match ds with [] => True | d :: r => d_off d = off /\ 0 <= opw (d_op d) /\ chain r (off + isz d) end.
Fixpoint endoff (ds : list dinst) (off : Z) : Z := match ds with [] => off | d :: r => endoff r (off + isz d) end.
Fixpoint tot (ds : list dinst) (total : Z) : Z := match ds with [] => total | d :: r => tot r (total + grow d) end.
Fixpoint ends_of (ds : list dinst) (total : Z) : list (Z * Z) :=
  match ds with
  | [] => []
  | d :: r => if jump_class (d_op d) then (d_off d + isz d, total + grow d) :: ends_of r (total + grow d) else ends_of r total
  end.
Fixpoint newoffs (ds : list dinst) (total : Z) : list Z :=
  match ds with [] => [] | d :: r => (d_off d + total) :: newoffs r (total + grow d) end.

(* the fold inside relocate, started from a growth g (relocate_F) *)
Definition F (t : Z) (ends : list (Z * Z)) (g : Z) : Z := fold_left (fun g eg => if fst eg <=? t then snd eg else g) ends g.
Fixpoint conv_ds (ends : list (Z * Z)) (ds : list dinst) (newlen : Z) : list dinst :=
  match ds with
  | [] => []
  | d :: r => (newlen, d_op d, if jump_class (d_op d) then map (relocate ends) (d_args d) else d_args d)
              :: conv_ds ends r (newlen + isz d + grow d)
  end.
Fixpoint smap (srcmap : list (Z * Z)) (ds : list dinst) (newlen : Z) : list (Z * Z) :=
  match ds with
  | [] => []
  | d :: r => match lookup_z (d_off d) srcmap with Some p => [(newlen, p)] | None => [] end ++ smap srcmap r (newlen + isz d + grow d)
  end.
(* MakeInstruction will accept the relocated operands: 2147483647 is max_operand 4 *)
Definition jumps_ok (ends : list (Z * Z)) (ds : list dinst) : Prop :=
  forall d t, In d ds -> jump_class (d_op d) = true -> In t (d_args d) -> 0 <= relocate ends t <= 2147483647.
Definition bytes_ok (l : list Z) : Prop := Forall (fun b => 0 <= b < 256) l.

Lemma relocate_F ends t : relocate ends t = t + F t ends 0. Proof. reflexivity. Qed.

Lemma isz_eq {off op args ws} : widths_of opcodes_v1 op = Some ws -> isz (off, op, args) = 1 + sumz ws.
Proof. intro H. unfold isz, opw, d_op. cbn [fst snd]. rewrite H. reflexivity. Qed.

Lemma grow_eq {off op args ws} : widths_of opcodes_v1 op = Some ws ->
  grow (off, op, args) = if jump_class op then 2 * Z.of_nat (List.length ws) else 0.
Proof. intro H. unfold grow, opn, d_op. cbn [fst snd]. rewrite H. reflexivity. Qed.

Lemma opw_nonneg op : 0 <= opw op.
Proof. unfold opw. destruct (widths_of opcodes_v1 op) as [ws|] eqn:E; [|lia]. apply sumz_nonneg. apply (tbl_rel E). Qed.

Lemma isz_pos d : 1 <= isz d.
Proof. pose proof (opw_nonneg (d_op d)). unfold isz. lia. Qed.

Lemma grow_nonneg d : 0 <= grow d.
Proof. unfold grow, opn. destruct (jump_class (d_op d)); [|lia]. destruct (widths_of opcodes_v1 (d_op d)); lia. Qed.

(* an instruction grows by 2 bytes per operand, and has 2 bytes per operand and the opcode *)
Lemma grow_le_isz d : grow d <= isz d.
Proof.
  pose proof (opw_nonneg (d_op d)) as Hw. unfold grow, isz, opn, opw in *.
  destruct (jump_class (d_op d)) eqn:Ej; [|lia]. destruct (widths_of opcodes_v1 (d_op d)) as [ws|] eqn:E; [|lia].
  destruct (tbl_rel E) as [_ T]. rewrite Ej in T. rewrite (sumz_all 2 ws) by apply T. lia.
Qed.

Lemma tot_shift ds : forall g, tot ds g = g + tot ds 0.
Proof. induction ds as [|d r IH]; intro g; cbn [tot]; [lia|]. rewrite (IH (g + grow d)), (IH (0 + grow d)). lia. Qed.

Lemma conv_ds_length ends ds : forall nl, List.length (conv_ds ends ds nl) = List.length ds.
Proof. induction ds as [|d r IH]; intro nl; cbn [conv_ds List.length]; [reflexivity | rewrite IH; reflexivity]. Qed.

Lemma F_in t ends : forall g, F t ends g = g \/ exists e, In e ends /\ fst e <= t /\ F t ends g = snd e.
Proof.
  induction ends as [|e r IH]; intros g; [left; reflexivity|]. unfold F in *. cbn [fold_left].
  destruct (Z.leb_spec (fst e) t) as [Hle|].
  - destruct (IH (snd e)) as [H1|(e' & Hin & H1)]; right; [exists e | exists e']; cbn [In]; auto.
  - destruct (IH g) as [H1|(e' & Hin & H1)]; [left; exact H1 | right; exists e'; cbn [In]; auto].
Qed.

Lemma F_skip t ends g : (forall e, In e ends -> t < fst e) -> F t ends g = g.
Proof. intro H. destruct (F_in t ends g) as [E|(e & Hin & Hle & _)]; [exact E | specialize (H e Hin); lia]. Qed.

(* an entry of ends_of is (end offset, growth so far) of a widened instruction *)
Lemma ends_of_in {ds off total e} : chain ds off -> In e (ends_of ds total) ->
  off < fst e /\ total <= snd e /\ snd e - total <= fst e - off.
Proof.
  revert off total. induction ds as [|d r IH]; intros off total Hc Hin; [contradiction|].
  destruct Hc as (Ho & _ & Hc). cbn [ends_of] in Hin.
  pose proof (grow_nonneg d). pose proof (grow_le_isz d). pose proof (isz_pos d).
  destruct (jump_class (d_op d)).
  - destruct Hin as [<-|Hin]; [cbn [fst snd]; lia|]. specialize (IH _ _ Hc Hin). lia.
  - specialize (IH _ _ Hc Hin). lia.
Qed.

Lemma F_ends ds off total t : chain ds off -> off <= t ->
  total <= F t (ends_of ds total) total <= total + (t - off).
Proof.
  intros Hc Ht. destruct (F_in t (ends_of ds total) total) as [E|(e & Hin & Hfe & E)]; rewrite E; [lia|].
  pose proof (ends_of_in Hc Hin). lia.
Qed.

(* past an instruction, the fold goes on from the growth so far *)
Lemma F_cons d r total t : d_off d + isz d <= t ->
  F t (ends_of (d :: r) total) total = F t (ends_of r (total + grow d)) (total + grow d).
Proof.
  intro H. cbn [ends_of]. unfold grow. destruct (jump_class (d_op d)); [|rewrite Z.add_0_r; reflexivity].
  unfold F. cbn [fold_left fst snd]. destruct (Z.leb_spec (d_off d + isz d) t); [reflexivity | lia].
Qed.

Lemma index_of_In {offs t i j} : index_of offs t i = Some j -> In t offs.
Proof.
  revert i. induction offs as [|o r IH]; intros i H; [discriminate|]. cbn [index_of] in H.
  destruct (Z.eqb_spec o t); [left; assumption | right; exact (IH _ H)].
Qed.

Lemma offs_ge {ds off o} : chain ds off -> In o (map d_off ds ++ [endoff ds off]) -> off <= o.
Proof.
  revert off o. induction ds as [|d r IH]; intros off o Hc Hin.
  - destruct Hin as [<-|[]]. cbn [endoff]. lia.
  - destruct Hc as (Ho & _ & Hc). cbn [map app endoff] in Hin. pose proof (isz_pos d).
    destruct Hin as [<-|Hin]; [lia|]. specialize (IH _ _ Hc Hin). lia.
Qed.

(* the index of a target among the old offsets is the index of the relocated target among the new ones *)
Lemma reloc_index ds : forall off total t i j, chain ds off ->
  index_of (map d_off ds ++ [endoff ds off]) t i = Some j ->
  index_of (newoffs ds total ++ [endoff ds off + tot ds total]) (t + F t (ends_of ds total) total) i = Some j.
Proof.
  induction ds as [|d r IH]; intros off total t i j Hc Hi.
  - cbn in *. destruct (Z.eqb_spec off t); [|discriminate]. subst. unfold F. cbn. rewrite Z.eqb_refl. exact Hi.
  - pose proof Hc as (Ho & _ & Hr). cbn [map app endoff index_of] in Hi.
    cbn [newoffs app endoff tot index_of].
    destruct (Z.eqb_spec (d_off d) t) as [E|E].
    + (* the target is this instruction: no widened instruction ends at or before it *)
      rewrite F_skip by (intros e Hin; pose proof (ends_of_in Hc Hin); lia).
      subst t. rewrite Z.eqb_refl. exact Hi.
    + (* the target lies behind this instruction, its new offset behind the new offset of this one *)
      assert (Hge: off + isz d <= t) by exact (offs_ge Hr (index_of_In Hi)).
      rewrite F_cons by lia.
      pose proof (F_ends r _ (total + grow d) t Hr Hge). pose proof (grow_nonneg d). pose proof (isz_pos d).
      destruct (Z.eqb_spec (d_off d + total) (t + F t (ends_of r (total + grow d)) (total + grow d))); [lia|].
      exact (IH _ _ _ _ _ Hr Hi).
Qed.

(* bytes is a sequence of instructions of the table tbl, the first at offset off, that read as ds:
   each is its opcode and sumz ws operand bytes, from which the operands are read whatever follows *)
Inductive stream (tbl : optable) : Z -> list Z -> list dinst -> Prop :=
| stream_nil off : stream tbl off [] []
| stream_cons off op ws body args next rest ds :
    widths_of tbl op = Some ws -> Z.of_nat (List.length body) = sumz ws ->
    (forall r, read_operands ws (body ++ r) = Some args) ->
    next = off + 1 + sumz ws -> stream tbl next rest ds ->
    stream tbl off (op :: body ++ rest) ((off, op, args) :: ds).
Arguments stream_cons {tbl off op ws body args next rest ds}.

Lemma stream_decode {tbl off bytes ds} : stream tbl off bytes ds ->
  forall f, (List.length ds < f)%nat -> decode_all f tbl bytes off = Some ds.
Proof.
  induction 1 as [off|off op ws body args next rest ds Hw Hl Hr -> _ IH]; intros [|f] Hf; cbn [List.length] in Hf; try lia; [reflexivity|].
  cbn [decode_all]. rewrite Hw, Hr, skipn_app_len, IH by lia. reflexivity.
Qed.

(* the fuel that abstract and conv_comp_func give is enough *)
Lemma stream_fuel {tbl off bytes ds} : stream tbl off bytes ds -> (List.length ds < S (List.length bytes))%nat.
Proof. induction 1; cbn [List.length]; [lia|]. rewrite app_length. lia. Qed.

Lemma decode_stream {f rest off ds} : decode_all f opcodes_v1 rest off = Some ds -> stream opcodes_v1 off rest ds.
Proof.
  revert rest off ds. induction f as [|f IH]; intros rest off ds H; [discriminate|].
  destruct rest as [|op tl]; [injection H as <-; constructor|]. cbn [decode_all] in H.
  destruct (widths_of opcodes_v1 op) as [ws|] eqn:Hw; [|discriminate].
  destruct (read_operands ws tl) as [args|] eqn:Hr; [|discriminate].
  destruct (read_operands_split (proj1 (tbl_rel Hw)) Hr) as (body & rest & -> & Hl & Hrd).
  rewrite skipn_app_len in H by lia.
  destruct (decode_all f _ rest _) as [r|] eqn:Hd; [|discriminate]. injection H as <-.
  exact (stream_cons Hw Hl Hrd eq_refl (IH _ _ _ Hd)).
Qed.

Lemma stream_chain {off bytes ds} : stream opcodes_v1 off bytes ds ->
  chain ds off /\ endoff ds off = off + Z.of_nat (List.length bytes).
Proof.
  induction 1 as [off|off op ws body args next rest ds Hw Hl _ -> _ [IHc IHe]]; cbn [chain endoff List.length]; [split; [exact I | lia]|].
  rewrite (isz_eq Hw), Z.add_assoc. split; [repeat split; [apply opw_nonneg | exact IHc]|].
  rewrite IHe, app_length. lia.
Qed.

Lemma pass1_spec f : forall rest off ds, decode_all f opcodes_v1 rest off = Some ds ->
  forall f1 acc total, (List.length ds < f1)%nat -> pass1 f1 rest off acc total = Ok (rev acc ++ ends_of ds total).
Proof.
  intros rest off ds H. apply decode_stream in H.
  induction H as [off|off op ws body args next rest ds Hw Hl _ -> _ IH]; intros [|f1] acc total Hf1; cbn [List.length] in Hf1; try lia.
  - cbn. rewrite app_nil_r. reflexivity.
  - cbn [pass1 ends_of]. rewrite Hw, app_length, skipn_app_len by lia.
    destruct (Z.ltb_spec (Z.of_nat (List.length body + List.length rest)) (sumz ws)); [lia|].
    rewrite (isz_eq Hw), (grow_eq Hw), Z.add_assoc. unfold d_op, d_off. cbn [fst snd].
    destruct (jump_class op).
    + rewrite IH by lia. cbn [rev]. rewrite <- app_assoc. reflexivity.
    + apply IH. lia.
Qed.

(* MakeInstruction on a jump-class opcode of version 2: every operand is 4 bytes wide (tbl_rel) *)
Lemma make_wide op (ws : list Z) args :
  widths_of opcodes_v2 op = Some (map (fun _ => 4) ws) -> List.length args = List.length ws ->
  (forall a, In a args -> 0 <= a <= 2147483647) ->
  exists body, make_instruction opcodes_v2 op args = Ok (op :: body) /\
    Z.of_nat (List.length body) = 4 * Z.of_nat (List.length ws) /\
    forall r, read_operands (map (fun _ => 4) ws) (body ++ r) = Some args.
Proof.
  intros Hw Hl Ha.
  assert (Hmk: make_instruction opcodes_v2 op args = Ok (op :: encode_operands (map (fun _ => 4) ws) args)).
  { apply make_instruction_accepts; [exact Hw | rewrite map_length; congruence|]. intros w a Hin.
    pose proof (in_combine_l _ _ _ _ Hin) as Hwin. apply in_map_iff in Hwin as (? & <- & _).
    exact (Ha a (in_combine_r _ _ _ _ Hin)). }
  destruct (make_instruction_ok Hmk) as (ws2 & Hw2 & _ & Hread & Hbl).
  rewrite Hw in Hw2. injection Hw2 as <-. rewrite sumz_const in Hbl. eauto.
Qed.

Lemma pass2_stream ends srcmap {off rest ds} : stream opcodes_v1 off rest ds -> jumps_ok ends ds ->
  forall newlen f2, (List.length ds < f2)%nat ->
  exists out, pass2 f2 ends srcmap rest off newlen = Ok (out, smap srcmap ds newlen) /\
    Z.of_nat (List.length out) = Z.of_nat (List.length rest) + tot ds 0 /\
    stream opcodes_v2 newlen out (conv_ds ends ds newlen).
Proof.
  induction 1 as [off|off op ws body args next rest ds Hw Hl Hr -> _ IH]; intros Hj newlen [|f2] Hf2; cbn [List.length] in Hf2; try lia.
  - exists []. repeat split. constructor.
  - destruct (tbl_rel Hw) as [_ Ht].
    specialize (IH (fun d t Hin => Hj d t (or_intror Hin))).
    cbn [pass2 smap conv_ds tot]. rewrite Hw, skipn_app_len, (isz_eq Hw), (grow_eq Hw), (tot_shift ds (0 + _)) by lia.
    unfold d_off, d_op, d_args. cbn [fst snd]. destruct (jump_class op) eqn:Ej.
    + (* a jump-class instruction: re-encoded with relocated operands, all of width 4 *)
      destruct Ht as [Hw2s Hw2]. pose proof (sumz_all 2 ws Hw2s) as Hws2.
      destruct (make_wide op ws (map (relocate ends) args) Hw2) as (body2 & Hmk & Hl2 & Hr2).
      { rewrite map_length. exact (read_operands_length (Hr [])). }
      { intros a Hin. apply in_map_iff in Hin as (t & <- & Ht). exact (Hj (off, op, args) t (or_introl eq_refl) Ej Ht). }
      rewrite Hr, Hmk. cbn [List.length].
      replace (newlen + (1 + sumz ws) + 2 * Z.of_nat (List.length ws)) with (newlen + Z.of_nat (S (List.length body2))) by lia.
      destruct (IH (newlen + Z.of_nat (S (List.length body2))) f2 ltac:(lia)) as (is & -> & Hlo & Hs2).
      exists ((op :: body2) ++ is). split; [reflexivity|]. split.
      * rewrite !app_length, !Nat2Z.inj_add, Hlo. cbn [List.length]. lia.
      * eapply stream_cons; [exact Hw2 | | exact Hr2 | | exact Hs2]; rewrite sumz_const; lia.
    + (* any other instruction: copied *)
      rewrite firstn_app_len by lia. replace (newlen + (1 + sumz ws) + 0) with (newlen + 1 + sumz ws) by lia.
      destruct (IH (newlen + 1 + sumz ws) f2 ltac:(lia)) as (is & -> & Hlo & Hs2).
      exists (op :: body ++ is). split; [reflexivity|]. split.
      * cbn [List.length]. rewrite !app_length, !Nat2Z.inj_succ, !Nat2Z.inj_add, Hlo. lia.
      * exact (stream_cons Ht Hl Hr eq_refl Hs2).
Qed.

Lemma pass2_spec f : forall rest off ds, decode_all f opcodes_v1 rest off = Some ds ->
  forall ends srcmap newlen f2 f3, (List.length ds < f2)%nat -> (List.length ds < f3)%nat -> jumps_ok ends ds ->
  exists out, pass2 f2 ends srcmap rest off newlen = Ok (out, smap srcmap ds newlen) /\
    Z.of_nat (List.length out) = Z.of_nat (List.length rest) + tot ds 0 /\
    decode_all f3 opcodes_v2 out newlen = Some (conv_ds ends ds newlen).
Proof.
  intros rest off ds H ends srcmap newlen f2 f3 Hf2 Hf3 Hj.
  destruct (pass2_stream ends srcmap (decode_stream H) Hj newlen f2 Hf2) as (out & Hp2 & Hlo & Hs2).
  exists out. split; [exact Hp2|]. split; [exact Hlo|]. apply (stream_decode Hs2). rewrite conv_ds_length. exact Hf3.
Qed.

Lemma ends_nil {ds total} : ends_of ds total = [] -> Forall (fun d => jump_class (d_op d) = false) ds.
Proof.
  revert total. induction ds as [|d r IH]; intros total H; [constructor|]. cbn [ends_of] in H.
  destruct (jump_class (d_op d)) eqn:E; [discriminate|]. constructor; [exact E | eapply IH; exact H].
Qed.

Lemma stream_nojump {off bytes ds} : stream opcodes_v1 off bytes ds ->
  Forall (fun d => jump_class (d_op d) = false) ds -> stream opcodes_v2 off bytes ds.
Proof.
  induction 1 as [off|off op ws body args next rest ds Hw Hl Hr Hn _ IH]; intro Hnj; [constructor|].
  inversion Hnj as [|? ? Hj Hnj']; subst. change (jump_class op = false) in Hj.
  destruct (tbl_rel Hw) as [_ Ht]. rewrite Hj in Ht.
  exact (stream_cons Ht Hl Hr eq_refl (IH Hnj')).
Qed.

Lemma read2_bound ws : forall l args, bytes_ok l -> ws = map (fun _ => 2) ws -> read_operands ws l = Some args ->
  Forall (fun a => 0 <= a <= 65535) args.
Proof.
  induction ws as [|w ws IH]; intros l args Hb Hw H; [inversion H; constructor|].
  injection Hw as -> Hws. cbn [read_operands] in H. change (Z.to_nat 2) with 2%nat in H.
  destruct l as [|b1 [|b2 l']]; cbn in H; try discriminate.
  inversion Hb as [|? ? H1 Hb']; subst. inversion Hb' as [|? ? H2 Hb'']; subst.
  destruct (read_operands ws l') as [rest|] eqn:Er; [|discriminate]. injection H as <-.
  constructor; [lia | exact (IH _ _ Hb'' Hws Er)].
Qed.

(* the operands of a jump-class instruction are two bytes each *)
Lemma stream_args {off bytes ds} : stream opcodes_v1 off bytes ds -> bytes_ok bytes ->
  forall d, In d ds -> jump_class (d_op d) = true -> Forall (fun a => 0 <= a <= 65535) (d_args d).
Proof.
  induction 1 as [off|off op ws body args next rest ds Hw Hl Hr _ _ IH]; intros Hb d Hin Hj; [contradiction|].
  inversion Hb as [|? ? _ Hb']; subst. apply Forall_app in Hb' as [Hbody Hrest].
  destruct Hin as [<-|Hin]; [|exact (IH Hrest d Hin Hj)]. change (jump_class op = true) in Hj.
  destruct (tbl_rel Hw) as [_ Ht]. rewrite Hj in Ht.
  apply (read2_bound ws (body ++ [])); [rewrite app_nil_r; exact Hbody | apply Ht | apply Hr].
Qed.

(* a jump operand t of a stream of bytes is below 2^16, and at most t bytes are added before
   offset t: the relocated operand fits 4 bytes, wherever it points *)
Lemma jumps_in_range {ins ds} : stream opcodes_v1 0 ins ds -> bytes_ok ins -> jumps_ok (ends_of ds 0) ds.
Proof.
  intros Hs Hb d t Hin Hj Ht. pose proof (stream_args Hs Hb d Hin Hj) as Hbd. rewrite Forall_forall in Hbd. specialize (Hbd t Ht).
  rewrite relocate_F. pose proof (F_ends ds 0 0 t (proj1 (stream_chain Hs)) (proj1 Hbd)). lia.
Qed.

Lemma map_opt_In {A B} {f : A -> option B} {l ys x} : map_opt f l = Some ys -> In x l -> exists y, f x = Some y.
Proof.
  revert ys. induction l as [|x0 l IH]; intros ys H Hin; [contradiction|]. cbn [map_opt] in H.
  destruct (f x0) as [y0|] eqn:E0; [|discriminate]. destruct (map_opt f l) as [ys0|]; [|discriminate].
  destruct Hin as [<-|Hin]; [exists y0; exact E0 | apply (IH _ eq_refl Hin)].
Qed.

Lemma map_opt_map {A A' B} {f : A -> option B} {g : A' -> option B} {h : A -> A'} {l ys} :
  (forall x y, f x = Some y -> g (h x) = Some y) -> map_opt f l = Some ys -> map_opt g (map h l) = Some ys.
Proof.
  intro Hfg. revert ys. induction l as [|x l IH]; intros ys H; [exact H|]. cbn [map map_opt] in *.
  destruct (f x) as [y|] eqn:E; [|discriminate]. destruct (map_opt f l) as [ys0|]; [|discriminate].
  rewrite (Hfg _ _ E), (IH _ eq_refl). exact H.
Qed.

Lemma conv_offs ends ds : forall off total, chain ds off -> map d_off (conv_ds ends ds (off + total)) = newoffs ds total.
Proof.
  induction ds as [|d r IH]; intros off total Hc; [reflexivity|]. destruct Hc as (Ho & _ & Hc).
  cbn [conv_ds map newoffs]. unfold d_off at 1. cbn [fst]. rewrite Ho. f_equal.
  replace (off + total + isz d + grow d) with ((off + isz d) + (total + grow d)) by lia. apply IH. exact Hc.
Qed.

Definition absf (offs : list Z) (d : dinst) : option (Z * list Z) :=
  let '(off, op, args) := d in
  if jump_class op then
    match map_opt (fun t => index_of offs t 0) args with
    | Some idx => Some (op, idx)
    | None => None
    end
  else Some (op, args).

Lemma abstract_unfold tbl ins : abstract tbl ins =
  match decode_all (S (List.length ins)) tbl ins 0 with
  | None => None
  | Some ds => map_opt (absf (map d_off ds ++ [Z.of_nat (List.length ins)])) ds
  end.
Proof. reflexivity. Qed.

Lemma abs_conv ends offs1 offs2 : (forall t j, index_of offs1 t 0 = Some j -> index_of offs2 (relocate ends t) 0 = Some j) ->
  forall ds nl a, map_opt (absf offs1) ds = Some a -> map_opt (absf offs2) (conv_ds ends ds nl) = Some a.
Proof.
  intro Hrel. induction ds as [|d r IH]; intros nl a H; [exact H|].
  cbn [map_opt conv_ds] in *. destruct d as [[off op] args]. unfold d_op, d_args. cbn [fst snd].
  destruct (absf offs1 (off, op, args)) as [x|] eqn:E1; [|discriminate].
  destruct (map_opt (absf offs1) r) as [xs|] eqn:E2; [|discriminate].
  rewrite (IH _ _ eq_refl). cbn [absf] in *. destruct (jump_class op); cbv iota in E1 |- *; [|congruence].
  destruct (map_opt (fun t => index_of offs1 t 0) args) as [idx|] eqn:E4; [|discriminate].
  rewrite (map_opt_map (g := fun t => index_of offs2 t 0) Hrel E4). congruence.
Qed.

Lemma lookup_app_skip k m1 m2 : (forall e, In e m1 -> fst e <> k) -> lookup_z k (m1 ++ m2) = lookup_z k m2.
Proof.
  induction m1 as [|[k' v] r IH]; intro H; [reflexivity|]. cbn [app lookup_z].
  destruct (Z.eqb_spec k k'); [exfalso; apply (H (k', v)); [left; reflexivity | cbn; lia]|]. apply IH. intros e Hin. apply H. right. exact Hin.
Qed.
Lemma lookup_none k m : (forall e, In e m -> fst e <> k) -> lookup_z k m = None.
Proof. intro H. rewrite <- (app_nil_r m). apply (lookup_app_skip k m [] H). Qed.

Lemma smap_keys {sm ds nl e} : In e (smap sm ds nl) -> nl <= fst e.
Proof.
  revert nl. induction ds as [|d r IH]; intros nl Hin; [contradiction|].
  cbn [smap] in Hin. apply in_app_or in Hin. pose proof (grow_nonneg d). pose proof (isz_pos d). destruct Hin as [Hin|Hin].
  - destruct (lookup_z (d_off d) sm); [|contradiction]. destruct Hin as [<-|[]]. cbn. lia.
  - specialize (IH _ Hin). lia.
Qed.

Definition smf (m : list (Z * Z)) (id : Z * dinst) : list (Z * Z) :=
  let '(i, d) := id in match lookup_z (d_off d) m with Some p => [(i, p)] | None => [] end.

(* pre is the part of the new source map written before ds is reached *)
Lemma smap_conv ends sm ds : forall nl pre idx, (forall e, In e pre -> fst e < nl) ->
  flat_map (smf (pre ++ smap sm ds nl)) (combine idx (conv_ds ends ds nl)) = flat_map (smf sm) (combine idx ds).
Proof.
  induction ds as [|d r IH]; intros nl pre idx Hpre; [destruct idx; reflexivity|].
  destruct idx as [|i idx]; [reflexivity|].
  cbn [conv_ds combine flat_map smap]. pose proof (grow_nonneg d) as Hg. pose proof (isz_pos d) as Hsz.
  f_equal.
  - unfold smf. cbn [fst snd]. unfold d_off at 1. cbn [fst].
    rewrite lookup_app_skip by (intros e Hin; specialize (Hpre e Hin); lia).
    destruct (lookup_z (d_off d) sm) as [p|].
    + cbn [app lookup_z]. rewrite Z.eqb_refl. reflexivity.
    + cbn [app]. rewrite lookup_none; [reflexivity|]. intros e Hin. pose proof (smap_keys Hin). lia.
  - rewrite app_assoc. apply IH. intros e Hin.
    apply in_app_or in Hin. destruct Hin as [Hin|Hin]; [specialize (Hpre e Hin); lia|].
    destruct (lookup_z (d_off d) sm); [|contradiction]. destruct Hin as [<-|[]]. cbn [fst]. lia.
Qed.

Lemma srcmap_unfold tbl ins sm : abstract_srcmap tbl ins sm =
  match decode_all (S (List.length ins)) tbl ins 0 with
  | None => None
  | Some ds => Some (flat_map (smf sm) (combine (map Z.of_nat (seq 0 (List.length ds))) ds))
  end.
Proof. reflexivity. Qed.

Theorem conv_relocates ins sm a : bytes_ok ins -> abstract opcodes_v1 ins = Some a ->
  exists ins2 sm2, conv_comp_func ins sm = Ok (ins2, sm2) /\
    abstract opcodes_v2 ins2 = Some a /\
    abstract_srcmap opcodes_v2 ins2 sm2 = abstract_srcmap opcodes_v1 ins sm.
Proof.
  intros Hb Ha. rewrite abstract_unfold in Ha. rewrite srcmap_unfold.
  destruct (decode_all (S (List.length ins)) opcodes_v1 ins 0) as [ds|] eqn:Hd; [|discriminate].
  pose proof (decode_stream Hd) as Hs. pose proof (stream_fuel Hs) as Hl.
  destruct (stream_chain Hs) as [Hc He]. cbn [Z.add] in He.
  unfold conv_comp_func. rewrite (pass1_spec _ _ _ _ Hd _ [] 0 Hl). cbn [rev app].
  destruct (ends_of ds 0) as [|e0 ends0] eqn:Eends.
  - (* no jump-class instruction: the function is returned as it is *)
    exists ins, sm. split; [reflexivity|].
    rewrite abstract_unfold, srcmap_unfold, (stream_decode (stream_nojump Hs (ends_nil Eends)) _ Hl).
    split; [exact Ha | reflexivity].
  - rewrite <- Eends.
    destruct (pass2_stream (ends_of ds 0) sm Hs (jumps_in_range Hs Hb) 0 _ Hl) as (out & Hp2 & Hlo & Hs2).
    exists out, (smap sm ds 0). split; [exact Hp2|].
    rewrite abstract_unfold, srcmap_unfold, (stream_decode Hs2 _ (stream_fuel Hs2)). split.
    + apply (abs_conv (ends_of ds 0) (map d_off ds ++ [Z.of_nat (List.length ins)])); [|exact Ha].
      intros t j Hidx. rewrite relocate_F. pose proof (conv_offs (ends_of ds 0) ds 0 0 Hc) as Ho. cbn [Z.add] in Ho. rewrite Ho.
      replace (Z.of_nat (List.length out)) with (endoff ds 0 + tot ds 0) by lia.
      apply (reloc_index ds 0 0 t 0 j Hc). rewrite He. exact Hidx.
    + apply f_equal. rewrite conv_ds_length.
      apply (smap_conv (ends_of ds 0) sm ds 0 []). intros e [].
Qed.

(* The fragment of values built from scalars, strings, bytes and arrays nested to any depth (C04):
   its round trip is that of all objects (ObjFullProofs) on this fragment. *)
From Coq Require Import List ZArith Lia.
From Ugo Require Import Base.Res Codec.Obj Codec.ObjMapProofs Codec.ObjFullProofs.
Local Open Scope Z_scope.

Fixpoint plain (v : cval) : bool :=
  match v with
  | CUndef | CBool _ => true
  | CInt z => (- 2 ^ 63 <=? z) && (z <? 2 ^ 63)
  | CUint z | CFloat z => (0 <=? z) && (z <? 2 ^ 64)
  | CChar z => (- 2 ^ 31 <=? z) && (z <? 2 ^ 31)
  | CStr s | CBytes s => true
  | CArr l => forallb plain l
  | _ => false
  end.

Fixpoint depth (v : cval) : nat :=
  match v with
  | CArr l => S (fold_right (fun x m => Nat.max (depth x) m) 0%nat l)
  | _ => 0%nat
  end.

Lemma plain_plainm v : plain v = true -> plainm v = true /\ depthm v = depth v.
Proof.
  induction v as [v Hv|l IH|m IH|m IH] using cval_ind'; cbn [plain]; intros H; try discriminate H.
  - (* a leaf is no container (Hv); on the leaves of its fragment plain is plainm *)
    destruct v; try contradiction; try discriminate H; split; (exact H || reflexivity).
  - destruct (fragment_list plain (fun x => plainm x = true) depthm depth l IH H) as [Ho Hd].
    split; [apply forallb_forall, Forall_forall, Ho | cbn [depthm depth]; rewrite Hd; reflexivity].
Qed.

Theorem plain_rt : forall n v, (depth v <= n)%nat -> plain v = true -> zlen (encode v) < 2 ^ 62 ->
  forall f rest, (n <= f)%nat -> decode_object (S f) (encode v ++ rest) = Ok (v, rest).
Proof.
  intros n v Hd Hp Hsz. destruct (plain_plainm v Hp) as [Hpm Hdm].
  apply (plainm_rt n v); [lia | exact Hpm | exact Hsz].
Qed.

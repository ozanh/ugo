(* Round trip of compiled functions (C04): parameters, locals, instructions, variadic flag and
   source map survive encode / decode. *)
From Coq Require Import List ZArith Lia.
From Ugo Require Import Base.Res Codec.Varint Codec.VarintProofs Codec.Obj Codec.ObjProofs.
Import ListNotations.
Local Open Scope Z_scope.

Definition i63 (z : Z) : Prop := - 2 ^ 63 <= z < 2 ^ 63.

(* the bounds that field2 and field5 ask: the encoded instructions stay below 2^63 with their prefix, and field5
   writes twice the number of source map entries as an int64 *)
Definition wf_cfunc (f : cfunc) : Prop :=
  0 <= cf_params f < 2 ^ 63 /\ 0 <= cf_locals f < 2 ^ 63 /\
  (forall i, cf_insts f = Some i -> zlen i < 2 ^ 62) /\
  (forall sm, cf_srcmap f = Some sm -> zlen sm < 2 ^ 61 /\ Forall (fun kv => i63 (fst kv) /\ i63 (snd kv)) sm).

Definition enc_pairs (sm : list (Z * Z)) : bytes := flat_map (fun kv => vi_to_bytes (fst kv) ++ vi_to_bytes (snd kv)) sm.

Lemma dec_pairs_enc sm : Forall (fun kv => i63 (fst kv) /\ i63 (snd kv)) sm ->
  forall rest acc, dec_pairs (List.length sm) (enc_pairs sm ++ rest) acc = Ok (rev acc ++ sm, rest).
Proof.
  induction 1 as [|[k v] sm [Hk Hv] Hs IH]; intros rest acc.
  - simpl. rewrite app_nil_r. reflexivity.
  - cbn [enc_pairs flat_map List.length dec_pairs fst snd]. rewrite <- !app_assoc.
    rewrite vi_read_to_bytes by exact Hk. cbn [bind fst snd].
    rewrite vi_read_to_bytes by exact Hv. cbn [bind fst snd].
    fold (enc_pairs sm). fold dec_pairs.
    rewrite IH. cbn [rev]. rewrite <- app_assoc. reflexivity.
Qed.

Lemma enc_pairs_length sm : 2 * zlen sm <= zlen (enc_pairs sm).
Proof.
  induction sm as [|[k v] sm IH]; [unfold zlen; simpl; lia|].
  cbn [enc_pairs flat_map fst snd]. fold (enc_pairs sm). rewrite !zlen_app.
  pose proof (vi_to_bytes_len k). pose proof (vi_to_bytes_len v). unfold zlen in *. cbn [List.length]. lia.
Qed.

(* the field loop under a short name for the statements below *)
Definition fields := dec_cfunc_fields.

Definition with_params f p := {| cf_params := p; cf_locals := cf_locals f; cf_insts := cf_insts f; cf_variadic := cf_variadic f; cf_srcmap := cf_srcmap f |}.
Definition with_locals f p := {| cf_params := cf_params f; cf_locals := p; cf_insts := cf_insts f; cf_variadic := cf_variadic f; cf_srcmap := cf_srcmap f |}.
Definition with_insts f b := {| cf_params := cf_params f; cf_locals := cf_locals f; cf_insts := Some b; cf_variadic := cf_variadic f; cf_srcmap := cf_srcmap f |}.
Definition with_variadic f := {| cf_params := cf_params f; cf_locals := cf_locals f; cf_insts := cf_insts f; cf_variadic := true; cf_srcmap := cf_srcmap f |}.
Definition with_srcmap f sm := {| cf_params := cf_params f; cf_locals := cf_locals f; cf_insts := cf_insts f; cf_variadic := cf_variadic f; cf_srcmap := Some sm |}.

Section Fields.
Variable dec : bytes -> res (cval * bytes).
Hypothesis dec_bytes : forall s rest, zlen s < 2 ^ 62 -> dec (enc_bytes s ++ rest) = Ok (CBytes s, rest).

Lemma field0 fuel p rest f : i63 p ->
  fields dec (S fuel) ((0 :: vi_to_bytes p) ++ rest) f = fields dec fuel rest (with_params f p).
Proof. intros Hp. cbn [fields dec_cfunc_fields app Z.eqb Pos.eqb]. rewrite vi_read_to_bytes by exact Hp. reflexivity. Qed.

Lemma field1 fuel p rest f : i63 p ->
  fields dec (S fuel) ((1 :: vi_to_bytes p) ++ rest) f = fields dec fuel rest (with_locals f p).
Proof. intros Hp. cbn [fields dec_cfunc_fields app Z.eqb Pos.eqb]. rewrite vi_read_to_bytes by exact Hp. reflexivity. Qed.

Lemma field2 fuel b rest f : zlen b < 2 ^ 62 ->
  fields dec (S fuel) ((2 :: enc_bytes b) ++ rest) f = fields dec fuel rest (with_insts f b).
Proof. intros Hb. cbn [fields dec_cfunc_fields app Z.eqb Pos.eqb]. rewrite dec_bytes by exact Hb. reflexivity. Qed.

Lemma field3 fuel rest f : fields dec (S fuel) (3 :: rest) f = fields dec fuel rest (with_variadic f).
Proof. reflexivity. Qed.

Lemma field5 fuel sm rest f : zlen sm < 2 ^ 61 -> Forall (fun kv => i63 (fst kv) /\ i63 (snd kv)) sm ->
  fields dec (S fuel) ((5 :: vi_to_bytes (zlen sm * 2) ++ enc_pairs sm) ++ rest) f = fields dec fuel rest (with_srcmap f sm).
Proof.
  intros Hl Hsm. cbn [fields dec_cfunc_fields app Z.eqb Pos.eqb]. fold dec_pairs. rewrite <- app_assoc.
  rewrite vi_read_to_bytes by (unfold i63, zlen in *; lia). cbn [bind].
  pose proof (enc_pairs_length sm) as Hpl.
  destruct (Z.ltb_spec (zlen sm * 2) 0); [unfold zlen in *; lia|]. cbn [orb].
  rewrite zlen_app. destruct (Z.ltb_spec (zlen (enc_pairs sm) + zlen rest) (zlen sm * 2)); [unfold zlen in *; lia|].
  replace (Z.to_nat (zlen sm * 2 / 2)) with (List.length sm) by (rewrite Z.div_mul by lia; unfold zlen; rewrite Nat2Z.id; reflexivity).
  rewrite dec_pairs_enc by exact Hsm. reflexivity.
Qed.

(* A field the encoder may leave out: seg is empty and the component keeps its default (g' = g), or
   seg is one field and a turn of the loop sets the component.  Fuel is sufficient when it exceeds
   the bytes left, as it does at the start (S (length body)); R is what the rest of the loop returns. *)
Lemma opt_field seg rest g g' R :
  seg = [] /\ g' = g \/
  seg <> [] /\ (forall fuel, fields dec (S fuel) (seg ++ rest) g = fields dec fuel rest g') ->
  (forall fuel, (List.length rest < fuel)%nat -> fields dec fuel rest g' = R) ->
  forall fuel, (List.length (seg ++ rest) < fuel)%nat -> fields dec fuel (seg ++ rest) g = R.
Proof.
  intros [[-> ->]|[Hne Hstep]] HR fuel Hf; [apply HR, Hf|].
  destruct fuel as [|fuel]; [lia|]. rewrite Hstep. apply HR.
  rewrite app_length in Hf. destruct seg; [congruence | cbn [List.length] in Hf; lia].
Qed.

Lemma fields_body f fuel : wf_cfunc f -> (List.length (enc_cfunc_body enc_bytes f) < fuel)%nat ->
  fields dec fuel (enc_cfunc_body enc_bytes f) empty_cfunc = Ok f.
Proof.
  intros [Hp [Hl [Hi Hs]]]. destruct f as [p l ins var sm]. cbn [cf_params cf_locals cf_insts cf_variadic cf_srcmap] in *.
  unfold enc_cfunc_body, empty_cfunc. cbn [cf_params cf_locals cf_insts cf_variadic cf_srcmap]. revert fuel.
  apply opt_field with (g' := Build_cfunc p 0 None false None).
  { destruct (Z.ltb_spec 0 p); [right; split; [discriminate|]; intros; apply field0; unfold i63; lia|].
    left. split; [reflexivity | f_equal; lia]. }
  apply opt_field with (g' := Build_cfunc p l None false None).
  { destruct (Z.ltb_spec 0 l); [right; split; [discriminate|]; intros; apply field1; unfold i63; lia|].
    left. split; [reflexivity | f_equal; lia]. }
  apply opt_field with (g' := Build_cfunc p l ins false None).
  { destruct ins as [i|]; [right; split; [discriminate|]; intros; apply field2, Hi; reflexivity|].
    left. split; reflexivity. }
  apply opt_field with (g' := Build_cfunc p l ins var None).
  { destruct var; [right; split; [discriminate|]; intros; apply field3|]. left. split; reflexivity. }
  (* nothing follows the last field: written as seg ++ [] it is an opt_field like the others *)
  intros fuel. rewrite <- (app_nil_r (match sm with Some _ => _ | None => _ end)). revert fuel.
  apply opt_field with (g' := Build_cfunc p l ins var sm).
  { destruct sm as [s|]; [right; split; [discriminate|]; intros; destruct (Hs s eq_refl); apply field5; assumption|].
    left. split; reflexivity. }
  intros [|fuel] Hf; [simpl in Hf; lia | reflexivity].
Qed.
End Fields.

Theorem cfunc_rt f fn rest :
  wf_cfunc fn -> zlen (enc_cfunc_body enc_bytes fn) < 2 ^ 63 ->
  decode_object (S (S f)) (encode (CCompiled fn) ++ rest) = Ok (CCompiled fn, rest).
Proof.
  intros Hwf Hsz. change (encode (CCompiled fn)) with (binCompiledFunction :: sized (enc_cfunc_body enc_bytes fn)).
  rewrite decode_sized by (reflexivity || exact Hsz).
  change (dec_framed ?d binCompiledFunction ?b ?r) with (dec_cfunc d b r). unfold dec_cfunc.
  rewrite dec_sized_payload_sized by exact Hsz. cbn [bind].
  rewrite fields_body; [reflexivity | | exact Hwf | lia].
  intros s rest' Hs. apply bytes_rt. lia.
Qed.

(* Round trip of every object of the tagged codec (C04): sync maps, function and builtin function
   objects, then all kinds nested through arrays, maps and sync maps to any depth. *)
From Coq Require Import List ZArith Bool Lia.
From Ugo Require Import Base.Res Base.ListFacts Codec.Varint Codec.VarintProofs Codec.Obj Codec.ObjProofs Codec.ObjMapProofs Codec.ObjCFuncProofs.
Import ListNotations.
Local Open Scope Z_scope.

Theorem syncmap_none_rt f rest : decode_object (S f) (encode (CSyncMap None) ++ rest) = Ok (CSyncMap None, rest).
Proof. exact (decode_size0 f binSyncMap rest eq_refl). Qed.

(* A nil sync map is written as the size 0; a map, even empty, with its size, whose first byte (the
   size of the size) is not 0. *)
Lemma dec_syncmap_sized dec t body r3 :
  dec_syncmap dec (t :: sized body) r3 = dec_entries dec (fun m => CSyncMap (Some m)) (t :: sized body) r3.
Proof.
  unfold dec_syncmap, sized, vi_to_bytes. cbn [tl app]. pose proof (put_varint_len (zlen body)) as H.
  destruct (Z.of_nat (List.length (put_varint (zlen body)))); [lia | reflexivity | reflexivity].
Qed.

Theorem syncmap_some_rt f m rest :
  Forall (fun kx => forall rest', decode_object f (encode (snd kx) ++ rest') = Ok (snd kx, rest')) m ->
  zlen (encode (CSyncMap (Some m))) < 2 ^ 63 ->
  decode_object (S f) (encode (CSyncMap (Some m)) ++ rest) = Ok (CSyncMap (Some m), rest).
Proof.
  rewrite encode_syncmap. intros Hall Hsz%framed_fits.
  rewrite decode_sized by (reflexivity || exact Hsz).
  change (dec_framed ?d binSyncMap ?b ?r) with (dec_syncmap d b r).
  rewrite dec_syncmap_sized. apply dec_entries_enc; assumption.
Qed.

Theorem syncmap_rt f m rest :
  Forall (fun kx => zlen (fst kx) < 2 ^ 63 /\ forall rest', decode_object f (encode (snd kx) ++ rest') = Ok (snd kx, rest')) m ->
  zlen (enc_entries m) < 2 ^ 62 ->
  decode_object (S f) (encode (CSyncMap (Some m)) ++ rest) = Ok (CSyncMap (Some m), rest).
Proof.
  intros Hall Hsz. apply syncmap_some_rt.
  - eapply Forall_impl; [|exact Hall]. intros kx [_ H]. exact H.
  - rewrite encode_syncmap. pose proof (sized_len binSyncMap (enc_entries m)). lia.
Qed.

(* Function and builtin function objects: only the name is encoded, as a String object. *)
Lemma dec_named_enc t name r3 : zlen (enc_string name) < 2 ^ 63 ->
  dec_named t (t :: sized (enc_string name)) r3 = Ok ((if t =? binFunction then CFunc name else CBuiltin name), r3).
Proof.
  unfold enc_string. intros Hs.
  assert (E: exists b r, enc_sized binString name = binString :: b :: r).
  { unfold enc_sized, vi_to_bytes. destruct name; cbn [app]; eexists _, _; reflexivity. }
  destruct E as (b & r & E).
  unfold dec_named, sized. cbn [tl].
  rewrite to_varint_to_bytes by (unfold zlen in *; lia). cbn [bind].
  destruct (Z.leb_spec (zlen (enc_sized binString name)) 0) as [H0|_].
  { rewrite E in H0. unfold zlen in H0. cbn [List.length] in H0. lia. }
  change (t :: ?hd ++ ?s) with ((t :: hd) ++ s).
  rewrite go_slice_app by (unfold zlen; rewrite ?app_length; cbn [List.length]; lia).
  cbn [bind]. rewrite dec_sized_payload_enc_sized by exact (enc_sized_fits _ _ Hs). rewrite E.
  destruct (t =? binFunction); reflexivity.
Qed.

Theorem named_obj_rt f tag name rest : tag = binFunction \/ tag = binBuiltinFunction -> zlen (enc_string name) < 2 ^ 63 ->
  decode_object (S f) (enc_named tag name ++ rest) =
  Ok ((if tag =? binFunction then CFunc name else CBuiltin name), rest).
Proof.
  intros Htag Hs. change (enc_named tag name) with (tag :: sized (enc_string name)).
  destruct Htag; subst tag; (rewrite decode_sized; [apply dec_named_enc, Hs | reflexivity | exact Hs]).
Qed.

Theorem named_rt f tag name rest : tag = binFunction \/ tag = binBuiltinFunction -> zlen name < 2 ^ 61 ->
  decode_object (S f) (enc_named tag name ++ rest) =
  Ok ((if tag =? binFunction then CFunc name else CBuiltin name), rest).
Proof.
  intros Htag Hn. apply named_obj_rt; [exact Htag|].
  pose proof (enc_sized_len binString name). fold (enc_string name) in *. lia.
Qed.

(* the values that survive the round trip: numbers within the range of their Go type, compiled functions
   within wf_cfunc, at every depth *)
Fixpoint okv (v : cval) : Prop :=
  match v with
  | CUndef | CBool _ | CStr _ | CBytes _ | CFunc _ | CBuiltin _ => True
  | CInt z => - 2 ^ 63 <= z < 2 ^ 63
  | CUint z | CFloat z => 0 <= z < 2 ^ 64
  | CChar z => - 2 ^ 31 <= z < 2 ^ 31
  | CArr l => (fix all (l : list cval) : Prop := match l with [] => True | x :: r => okv x /\ all r end) l
  | CMap m | CSyncMap (Some m) => (fix all (m : list (bytes * cval)) : Prop := match m with [] => True | kx :: r => okv (snd kx) /\ all r end) m
  | CSyncMap None => True
  | CCompiled fn => wf_cfunc fn
  end.

(* the fuel decode_object needs beyond 1; a compiled function counts 1 for the instructions, which are decoded by
   a nested decode_object *)
Fixpoint depthf (v : cval) : nat :=
  match v with
  | CArr l => S (fold_right (fun x m => Nat.max (depthf x) m) 0%nat l)
  | CMap m | CSyncMap (Some m) => S (fold_right (fun kx n => Nat.max (depthf (snd kx)) n) 0%nat m)
  | CCompiled _ => 1%nat
  | _ => 0%nat
  end.

Lemma okv_arr l : okv (CArr l) <-> Forall okv l.
Proof. apply (all_Forall okv). Qed.
Lemma okv_entries m : okv (CMap m) <-> Forall (fun kx => okv (snd kx)) m.
Proof. apply (all_Forall (fun kx => okv (snd kx))). Qed.

Lemma fold_max_le {A} (d : A -> nat) x l : In x l -> (d x <= fold_right (fun y m => Nat.max (d y) m) 0 l)%nat.
Proof.
  induction l as [|y l IH]; intros Hin; [destruct Hin|]. cbn [fold_right].
  destruct Hin as [->|Hin]; [|specialize (IH Hin)]; lia.
Qed.

(* the one size bound says that what was written fits: every length the encoder writes is that of
   a part of encode v *)
Theorem encode_decode fuel : forall v rest, okv v -> zlen (encode v) < 2 ^ 63 -> (depthf v < fuel)%nat ->
  decode_object fuel (encode v ++ rest) = Ok (v, rest).
Proof.
  induction fuel as [|f IH]; intros v rest Hok Hsz Hd; [lia|].
  (* the entries of a map or sync map are smaller in depth and size *)
  assert (Hentries: forall m, okv (CMap m) -> zlen (enc_entries m) < 2 ^ 63 -> (depthf (CMap m) < S f)%nat ->
            Forall (fun kx => forall rest', decode_object f (encode (snd kx) ++ rest') = Ok (snd kx, rest')) m).
  { intros m Hm Hs Hdm. apply okv_entries in Hm. rewrite Forall_forall in *. intros kx Hin rest'. apply IH.
    - apply Hm, Hin.
    - pose proof (entry_size kx m Hin). unfold zlen in *. lia.
    - pose proof (fold_max_le (fun kx => depthf (snd kx)) kx m Hin). cbn [depthf] in Hdm. lia. }
  destruct v as [|b|z|z|z|z|s|s|l|m|[m|]|name|name|fn].
  - reflexivity.
  - destruct b; reflexivity.
  - apply int_rt, Hok.
  - apply uint_rt, Hok.
  - apply char_rt, Hok.
  - apply float_rt, Hok.
  - apply string_rt, (enc_sized_fits binString), Hsz.
  - apply bytes_rt, (enc_sized_fits binBytes), Hsz.
  - apply array_rt; [|exact Hsz]. apply okv_arr in Hok. rewrite Forall_forall in *. intros x Hin rest'. apply IH.
    + apply Hok, Hin.
    + pose proof (elem_size x l Hin). lia.
    + pose proof (fold_max_le depthf x l Hin). cbn [depthf] in Hd. lia.
  - apply map_rt; [|exact Hsz]. rewrite encode_map in Hsz. apply framed_fits in Hsz. apply Hentries; assumption.
  - apply syncmap_some_rt; [|exact Hsz]. rewrite encode_syncmap in Hsz. apply framed_fits in Hsz. apply Hentries; assumption.
  - apply syncmap_none_rt.
  - apply (named_obj_rt f binFunction); [left; reflexivity | exact (framed_fits _ _ Hsz)].
  - apply (named_obj_rt f binBuiltinFunction); [right; reflexivity | exact (framed_fits _ _ Hsz)].
  - destruct f as [|f]; [cbn [depthf] in Hd; lia|]. apply cfunc_rt; [exact Hok | exact (framed_fits _ _ Hsz)].
Qed.

Theorem full_rt : forall n v, (depthf v <= n)%nat -> okv v -> zlen (encode v) < 2 ^ 61 ->
  forall f rest, (n <= f)%nat -> decode_object (S f) (encode v ++ rest) = Ok (v, rest).
Proof. intros n v Hd Hok Hsz f rest Hf. apply encode_decode; [exact Hok | lia | lia]. Qed.

Theorem object_rt v rest : okv v -> zlen (encode v) < 2 ^ 61 ->
  forall fuel, (depthf v < fuel)%nat -> decode_object fuel (encode v ++ rest) = Ok (v, rest).
Proof. intros Hok Hsz fuel Hf. apply encode_decode; [exact Hok | lia | exact Hf]. Qed.

(* induction on values that goes through the lists of arrays, maps and sync maps *)
Lemma cval_ind' (P : cval -> Prop) :
  (forall v, match v with CArr _ | CMap _ | CSyncMap (Some _) => False | _ => True end -> P v) ->
  (forall l, Forall P l -> P (CArr l)) ->
  (forall m, Forall (fun kx => P (snd kx)) m -> P (CMap m)) ->
  (forall m, Forall (fun kx => P (snd kx)) m -> P (CSyncMap (Some m))) ->
  forall v, P v.
Proof.
  intros Hleaf Harr Hmap Hsync. fix IH 1. intros v.
  destruct v as [|b|z|z|z|z|s|s|l|m|[m|]|name|name|fn]; try (apply Hleaf; exact I).
  - apply Harr. induction l as [|x l IHl]; constructor; [apply IH | exact IHl].
  - apply Hmap. induction m as [|kx m IHm]; constructor; [apply IH | exact IHm].
  - apply Hsync. induction m as [|kx m IHm]; constructor; [apply IH | exact IHm].
Qed.

(* the list step of the inclusions plain -> plainm -> okv: p is the smaller fragment, ok the larger,
   d and d' their depths *)
Lemma fragment_list {A} (p : A -> bool) (ok : A -> Prop) (d d' : A -> nat) l :
  Forall (fun x => p x = true -> ok x /\ d x = d' x) l -> forallb p l = true ->
  Forall ok l /\
  fold_right (fun x m => Nat.max (d x) m) 0%nat l = fold_right (fun x m => Nat.max (d' x) m) 0%nat l.
Proof.
  induction 1 as [|x l Hx _ IH]; cbn [forallb fold_right]; intros H; [split; [constructor | reflexivity]|].
  apply andb_true_iff in H as [Hpx Hpl]. destruct (Hx Hpx) as [Ho Hd], (IH Hpl) as [Hol Hdl].
  split; [constructor; assumption | rewrite Hd, Hdl; reflexivity].
Qed.

Lemma plainm_okv v : plainm v = true -> okv v /\ depthf v = depthm v.
Proof.
  induction v as [v Hv|l IH|m IH|m IH] using cval_ind'; cbn [plainm]; intros H.
  - (* a leaf is no container (Hv); a nil sync map, a function or a compiled function is not in the fragment (H);
       undefined, booleans, strings and bytes ask nothing; H holds the range of a scalar *)
    destruct v as [|b|z|z|z|z|s|s|l|m|[m|]|name|name|fn]; try contradiction; try discriminate H;
      (split; [|reflexivity]); try exact I; apply andb_true_iff in H as [H1%Z.leb_le H2%Z.ltb_lt]; cbn [okv]; lia.
  - destruct (fragment_list plainm okv depthf depthm l IH H) as [Ho Hd].
    split; [apply okv_arr, Ho | cbn [depthf depthm]; rewrite Hd; reflexivity].
  - destruct (fragment_list _ (fun kx => okv (snd kx)) (fun kx => depthf (snd kx)) (fun kx => depthm (snd kx)) m IH H) as [Ho Hd].
    split; [apply okv_entries, Ho | cbn [depthf depthm]; rewrite Hd; reflexivity].
  - discriminate H.
Qed.

Theorem plainm_rt : forall n v, (depthm v <= n)%nat -> plainm v = true -> zlen (encode v) < 2 ^ 62 ->
  forall f rest, (n <= f)%nat -> decode_object (S f) (encode v ++ rest) = Ok (v, rest).
Proof.
  intros n v Hd Hp Hsz f rest Hf. destruct (plainm_okv v Hp) as [Hok Hdf].
  apply encode_decode; [exact Hok | lia | lia].
Qed.

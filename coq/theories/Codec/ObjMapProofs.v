(* Round trips of arrays and maps, given those of their elements (C04): the element loop of
   Array.UnmarshalBinary and the entry loop shared by Map and SyncMap. *)
From Coq Require Import List ZArith Lia.
From Ugo Require Import Base.Res Codec.Varint Codec.VarintProofs Codec.Obj Codec.ObjProofs.
Import ListNotations.
Local Open Scope Z_scope.

Lemma encode_nonempty v : encode v <> [].
Proof.
  destruct v; cbn [encode]; try discriminate.
  - destruct b; discriminate.
  - unfold enc_int, enc_small. destruct (z =? 0); discriminate.
  - unfold enc_uint, enc_small. destruct (z =? 0); discriminate.
  - unfold enc_char, enc_small. destruct (z =? 0); discriminate.
  - unfold enc_float, enc_small. destruct (bits =? 0); discriminate.
  - unfold enc_string, enc_sized. destruct s; discriminate.
  - unfold enc_bytes, enc_sized. destruct s; discriminate.
  - destruct l; discriminate.
  - destruct m; discriminate.
Qed.

Definition arr_body (l : list cval) : bytes :=
  match l with [] => [] | _ => vi_to_bytes (zlen l) ++ flat_map encode l end.

Lemma encode_arr l : encode (CArr l) = enc_sized binArray (arr_body l).
Proof. destruct l; reflexivity. Qed.

Lemma dec_arr_elems_S dec fuel rd acc :
  dec_arr_elems dec (S fuel) rd acc =
  match rd with [] => Ok (rev acc) | _ => do orr <- dec rd; dec_arr_elems dec fuel (snd orr) (fst orr :: acc) end.
Proof. reflexivity. Qed.

Lemma dec_arr_elems_enc (dec : bytes -> res (cval * bytes)) l :
  Forall (fun x => forall rest, dec (encode x ++ rest) = Ok (x, rest)) l ->
  forall fuel acc, (List.length l < fuel)%nat ->
  dec_arr_elems dec fuel (flat_map encode l) acc = Ok (rev acc ++ l).
Proof.
  induction 1 as [|x l Hx Hl IH]; intros fuel acc Hf;
    (destruct fuel as [|fuel]; [simpl in Hf; lia|]); rewrite dec_arr_elems_S; cbn [flat_map].
  - rewrite app_nil_r. reflexivity.
  - rewrite match_cons by (intros E; apply app_eq_nil in E as [E _]; exact (encode_nonempty x E)).
    rewrite Hx. cbn [bind fst snd].
    rewrite IH by (simpl in Hf; lia). cbn [rev]. rewrite <- app_assoc. reflexivity.
Qed.

Lemma flat_map_encode_length l : zlen l <= zlen (flat_map encode l).
Proof.
  induction l as [|x l IH]; [unfold zlen; simpl; lia|]. cbn [flat_map]. rewrite zlen_app.
  pose proof (encode_nonempty x). destruct (encode x); [congruence|]. unfold zlen in *. cbn [List.length]. lia.
Qed.

Lemma flat_map_size {A B} (f : A -> list B) x l : In x l -> zlen (f x) <= zlen (flat_map f l).
Proof.
  induction l as [|y l IH]; intros Hin; [destruct Hin|]. cbn [flat_map]. rewrite zlen_app.
  destruct Hin as [->|Hin]; [|specialize (IH Hin)]; unfold zlen in *; lia.
Qed.

Lemma elem_size x l : In x l -> zlen (encode x) <= zlen (encode (CArr l)).
Proof.
  intros Hin. destruct l as [|y l]; [destruct Hin|]. apply (flat_map_size encode) in Hin.
  rewrite encode_arr. pose proof (enc_sized_len binArray (arr_body (y :: l))) as Hb.
  unfold arr_body in *. rewrite zlen_app in Hb. unfold zlen in *. lia.
Qed.

Theorem array_rt f l rest :
  Forall (fun x => forall rest', decode_object f (encode x ++ rest') = Ok (x, rest')) l ->
  zlen (encode (CArr l)) < 2 ^ 63 ->
  decode_object (S f) (encode (CArr l) ++ rest) = Ok (CArr l, rest).
Proof.
  intros Hall. rewrite encode_arr. intros Hb%enc_sized_fits.
  rewrite decode_enc_sized by (reflexivity || exact Hb).
  change (dec_framed ?d binArray ?b ?r) with (dec_array d b r). unfold dec_array.
  rewrite dec_sized_payload_enc_sized by exact Hb. cbn [bind].
  destruct l as [|x r]; [reflexivity|]. set (l := x :: r) in *.
  change (arr_body l) with (vi_to_bytes (zlen l) ++ flat_map encode l) in *.
  rewrite match_cons by (unfold vi_to_bytes; discriminate).
  rewrite zlen_app in Hb. pose proof (flat_map_encode_length l) as Hl.
  rewrite vi_read_to_bytes by (unfold zlen in *; lia). cbn [bind].
  rewrite zlen_ltb_0. destruct (Z.ltb_spec (zlen (flat_map encode l)) (zlen l)); [lia|].
  rewrite dec_arr_elems_enc by (try exact Hall; unfold zlen in *; lia). reflexivity.
Qed.

Fixpoint enc_entries (m : list (bytes * cval)) : bytes :=
  match m with [] => [] | (k, x) :: r => vi_to_bytes (zlen k) ++ k ++ encode x ++ enc_entries r end.

Lemma encode_map m : encode (CMap m) = binMap :: sized (enc_entries m).
Proof. reflexivity. Qed.

Lemma encode_syncmap m : encode (CSyncMap (Some m)) = binSyncMap :: sized (enc_entries m).
Proof. reflexivity. Qed.

Lemma dec_map_entries_S dec fuel rd acc :
  dec_map_entries dec (S fuel) rd acc =
  match rd with
  | [] => Ok (rev acc)
  | _ =>
      do vr <- vi_read rd;
      let '(klen, rd1) := vr in
      do kr <- (if 0 <? klen then read_n klen rd1 else Ok ([], rd1));
      let '(k, rd2) := kr in
      do orr <- dec rd2;
      dec_map_entries dec fuel (snd orr) ((k, fst orr) :: acc)
  end.
Proof. reflexivity. Qed.

(* an empty key is not read at all *)
Lemma read_key k rest : (if 0 <? zlen k then read_n (zlen k) (k ++ rest) else Ok ([], k ++ rest)) = Ok (k, rest).
Proof.
  destruct (Z.ltb_spec 0 (zlen k)); [apply read_n_app|].
  destruct k; [reflexivity | unfold zlen in *; cbn [List.length] in *; lia].
Qed.

Lemma entry_size (kx : bytes * cval) m : In kx m -> zlen (fst kx) + zlen (encode (snd kx)) <= zlen (enc_entries m).
Proof.
  induction m as [|[k y] m IH]; intros Hin; [destruct Hin|]. cbn [enc_entries]. rewrite !zlen_app.
  destruct Hin as [<-|Hin]; [|specialize (IH Hin)]; cbn [fst snd]; unfold zlen in *; lia.
Qed.

Lemma enc_entries_length m : zlen m <= zlen (enc_entries m).
Proof.
  induction m as [|[k x] m IH]; [unfold zlen; simpl; lia|].
  cbn [enc_entries]. rewrite !zlen_app. pose proof (vi_to_bytes_len (zlen k)).
  unfold zlen in *. cbn [List.length]. lia.
Qed.

(* the key lengths fit their prefixes because the whole does *)
Lemma dec_map_entries_enc (dec : bytes -> res (cval * bytes)) m :
  Forall (fun kx => forall rest, dec (encode (snd kx) ++ rest) = Ok (snd kx, rest)) m ->
  zlen (enc_entries m) < 2 ^ 63 ->
  forall fuel acc, (List.length m < fuel)%nat ->
  dec_map_entries dec fuel (enc_entries m) acc = Ok (rev acc ++ m).
Proof.
  induction 1 as [|[k x] m Hx Hm IH]; intros Hsz fuel acc Hf;
    (destruct fuel as [|fuel]; [simpl in Hf; lia|]); rewrite dec_map_entries_S; cbn [enc_entries].
  - rewrite app_nil_r. reflexivity.
  - cbn [enc_entries] in Hsz. rewrite !zlen_app in Hsz. cbn [snd] in Hx.
    rewrite match_cons by (unfold vi_to_bytes; discriminate).
    rewrite vi_read_to_bytes by (unfold zlen in *; lia). cbn [bind].
    rewrite read_key. cbn [bind]. rewrite Hx. cbn [bind fst snd].
    rewrite IH by (unfold zlen in *; simpl in Hf; lia). cbn [rev]. rewrite <- app_assoc. reflexivity.
Qed.

Lemma dec_entries_enc dec k t m r3 :
  Forall (fun kx => forall rest, dec (encode (snd kx) ++ rest) = Ok (snd kx, rest)) m ->
  zlen (enc_entries m) < 2 ^ 63 ->
  dec_entries dec k (t :: sized (enc_entries m)) r3 = Ok (k m, r3).
Proof.
  intros Hall Hsz. unfold dec_entries. rewrite dec_sized_payload_sized by exact Hsz. cbn [bind].
  pose proof (enc_entries_length m).
  rewrite dec_map_entries_enc; [reflexivity | exact Hall | exact Hsz | unfold zlen in *; lia].
Qed.

Theorem map_rt f m rest :
  Forall (fun kx => forall rest', decode_object f (encode (snd kx) ++ rest') = Ok (snd kx, rest')) m ->
  zlen (encode (CMap m)) < 2 ^ 63 ->
  decode_object (S f) (encode (CMap m) ++ rest) = Ok (CMap m, rest).
Proof.
  rewrite encode_map. intros Hall Hsz%framed_fits.
  rewrite decode_sized by (reflexivity || exact Hsz). apply (dec_entries_enc _ CMap); assumption.
Qed.

(* values nested through arrays and maps only; their round trip (plainm_rt) is in ObjFullProofs *)
Fixpoint plainm (v : cval) : bool :=
  match v with
  | CUndef | CBool _ => true
  | CInt z => (- 2 ^ 63 <=? z) && (z <? 2 ^ 63)
  | CUint z | CFloat z => (0 <=? z) && (z <? 2 ^ 64)
  | CChar z => (- 2 ^ 31 <=? z) && (z <? 2 ^ 31)
  | CStr s | CBytes s => true
  | CArr l => forallb plainm l
  | CMap m => forallb (fun kx => plainm (snd kx)) m
  | _ => false
  end.

Fixpoint depthm (v : cval) : nat :=
  match v with
  | CArr l => S (fold_right (fun x m => Nat.max (depthm x) m) 0%nat l)
  | CMap m => S (fold_right (fun kx n => Nat.max (depthm (snd kx)) n) 0%nat m)
  | _ => 0%nat
  end.

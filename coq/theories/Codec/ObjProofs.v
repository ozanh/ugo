(* DecodeObject is taken apart into the reader of a frame (size and payload after the tag) and the
   UnmarshalBinary bodies it dispatches to; on these parts: no Go panic for any byte string (C18), and the
   round trips of scalars, strings and bytes (C04). *)
From Coq Require Import List ZArith Bool Lia String.
From Ugo Require Import Base.Res Base.ListFacts Codec.Varint Codec.VarintProofs Codec.Obj.
Import ListNotations.
Local Open Scope Z_scope.

Lemma zlen_app {A} (a b : list A) : zlen (a ++ b) = zlen a + zlen b.
Proof. unfold zlen. rewrite app_length. lia. Qed.

Lemma zlen_ltb_0 {A} (l : list A) : (zlen l <? 0) = false.
Proof. apply Z.ltb_ge. unfold zlen. lia. Qed.

Lemma zlen_app_ltb {A} (a b : list A) : (zlen (a ++ b) <? zlen a) = false.
Proof. apply Z.ltb_ge. rewrite zlen_app. unfold zlen. lia. Qed.

Lemma match_cons {A B} (l : list A) (a b : B) : l <> [] -> match l with [] => a | _ => b end = b.
Proof. destruct l; [congruence | reflexivity]. Qed.

Definition small_tag (t : Z) : bool := (t =? binInt) || (t =? binUint) || (t =? binFloat) || (t =? binChar).

Definition framed_tag (t : Z) : bool :=
  (t =? binCompiledFunction) || (t =? binArray) || (t =? binBytes) || (t =? binString)
  || (t =? binMap) || (t =? binSyncMap) || (t =? binFunction) || (t =? binBuiltinFunction).

Definition dec_scalar (t : Z) (buf r3 : bytes) : res (cval * bytes) :=
  if t =? binInt then do v <- dec_small buf true; Ok (CInt v, r3)
  else if t =? binUint then do v <- dec_small buf false; Ok (CUint v, r3)
  else if t =? binFloat then do v <- dec_small buf false; Ok (CFloat v, r3)
  else do v <- dec_small buf true;
       if (v <? - 2 ^ 31) || (2 ^ 31 <=? v) then Err (e "char larger than 32 bits") else Ok (CChar v, r3).

(* readBytes, then ReadFull of the announced size; k continues with the frame (the size prefix as
   read ++ the payload) and the rest *)
Definition with_frame {A} (r1 : bytes) (k : bytes -> bytes -> res A) : res A :=
  do vb <- vi_read_bytes r1;
  let '(value, read, r2) := vb in
  if value <? 0 then Err (e "negative value")
  else if zlen r2 <? value then Err (e "unexpected EOF")
  else do pr <- read_n value r2; let '(payload, r3) := pr in k (read ++ payload) r3.

(* the source map loop inside dec_cfunc_fields *)
Definition dec_pairs :=
  fix pairs (n : nat) (rd : bytes) (acc : list (Z * Z)) : res (list (Z * Z) * bytes) :=
    match n with
    | O => Ok (rev acc, rd)
    | S n' => do kr <- vi_read rd; do vr <- vi_read (snd kr); pairs n' (snd vr) ((fst kr, fst vr) :: acc)
    end.

(* The UnmarshalBinary bodies; buf is the tag followed by the frame. *)
Section Kinds.
  Variable dec : bytes -> res (cval * bytes).

  Definition dec_array (buf r3 : bytes) : res (cval * bytes) :=
    do body <- dec_sized_payload buf;
    match body with
    | [] => Ok (CArr [], r3)
    | _ =>
        do lr <- vi_read body;
        let '(len, rd) := lr in
        if (len <? 0) || (zlen rd <? len) then Err (e "invalid array length")
        else do l <- dec_arr_elems dec (S (List.length rd)) rd []; Ok (CArr l, r3)
    end.

  (* Map, and SyncMap with k m = CSyncMap (Some m) *)
  Definition dec_entries (k : list (bytes * cval) -> cval) (buf r3 : bytes) : res (cval * bytes) :=
    do body <- dec_sized_payload buf;
    do m <- dec_map_entries dec (S (List.length body)) body []; Ok (k m, r3).

  Definition dec_syncmap (buf r3 : bytes) : res (cval * bytes) :=
    match tl buf with
    | 0 :: _ => Ok (CSyncMap None, r3)
    | _ => dec_entries (fun m => CSyncMap (Some m)) buf r3
    end.

  Definition dec_cfunc (buf r3 : bytes) : res (cval * bytes) :=
    do body <- dec_sized_payload buf;
    do f <- dec_cfunc_fields dec (S (List.length body)) body empty_cfunc; Ok (CCompiled f, r3).

  Definition dec_named (t : Z) (buf r3 : bytes) : res (cval * bytes) :=
    do so <- to_varint (tl buf);
    let '(size, offset) := so in
    if size <=? 0 then Err (e "invalid function data size")
    else
      do inner <- go_slice buf (1 + offset) (zlen buf);
      match inner with
      | tag :: _ :: _ =>
          if tag =? binString then
            do s <- dec_sized_payload inner;
            if t =? binFunction then Ok (CFunc s, r3) else Ok (CBuiltin s, r3)
          else Err (e "invalid string data")
      | _ => Err (e "invalid string data")
      end.

  Definition dec_framed (t : Z) (buf r3 : bytes) : res (cval * bytes) :=
    if t =? binString then do s <- dec_sized_payload buf; Ok (CStr s, r3)
    else if t =? binBytes then do s <- dec_sized_payload buf; Ok (CBytes s, r3)
    else if t =? binArray then dec_array buf r3
    else if t =? binMap then dec_entries CMap buf r3
    else if t =? binSyncMap then dec_syncmap buf r3
    else if t =? binCompiledFunction then dec_cfunc buf r3
    else dec_named t buf r3.
End Kinds.

Lemma decode_object_small f t r1 : small_tag t = true ->
  decode_object (S f) (t :: r1) =
  match r1 with
  | [] => Err (e "EOF")
  | size :: r2 => do pr <- read_n size r2; let '(payload, r3) := pr in dec_scalar t (t :: size :: payload) r3
  end.
Proof.
  unfold small_tag. intros Ht.
  repeat (apply orb_prop in Ht as [Ht|Ht]); apply Z.eqb_eq in Ht; subst t; reflexivity.
Qed.

Lemma decode_object_framed f t r1 : framed_tag t = true ->
  decode_object (S f) (t :: r1) = with_frame r1 (fun frame r3 => dec_framed (decode_object f) t (t :: frame) r3).
Proof.
  unfold framed_tag. intros Ht.
  repeat (apply orb_prop in Ht as [Ht|Ht]); apply Z.eqb_eq in Ht; subst t; reflexivity.
Qed.

Lemma go_slice_ok data lo hi : 0 <= lo <= hi -> hi <= zlen data ->
  go_slice data lo hi = Ok (firstn (Z.to_nat (hi - lo)) (skipn (Z.to_nat lo) data)).
Proof.
  intros H1 H2. unfold go_slice.
  destruct (Z.ltb_spec lo 0); [lia|]. destruct (Z.ltb_spec hi lo); [lia|].
  destruct (Z.ltb_spec (zlen data) hi); [lia|]. reflexivity.
Qed.

Lemma go_slice_no_panic data lo hi : 0 <= lo -> lo <= hi -> hi <= zlen data -> is_panic (go_slice data lo hi) = false.
Proof. intros H1 H2 H3. rewrite go_slice_ok by lia. reflexivity. Qed.

Lemma dec_sized_payload_no_panic data : is_panic (dec_sized_payload data) = false.
Proof.
  unfold dec_sized_payload. destruct data as [|t rest]; [reflexivity|].
  destruct rest as [|x xs]; [reflexivity|].
  apply bind_no_panic_at; [apply to_varint_no_panic; discriminate|].
  intros [size offset] Ho. apply to_varint_offset in Ho.
  destruct (Z.leb_spec size 0); [reflexivity|].
  destruct (Z.ltb_spec (zlen (t :: x :: xs) - 1 - offset) size); [reflexivity|].
  apply go_slice_no_panic; lia.
Qed.

Lemma read_n_no_panic n buf : is_panic (read_n n buf) = false.
Proof. unfold read_n. auto with no_panic. Qed.

Lemma dec_small_no_panic data signed : is_panic (dec_small data signed) = false.
Proof. unfold dec_small. auto 20 with no_panic. Qed.

Lemma vi_read_bytes_no_panic buf : is_panic (vi_read_bytes buf) = false.
Proof. unfold vi_read_bytes. auto 20 with no_panic. Qed.

#[local] Hint Resolve vi_read_no_panic read_n_no_panic dec_small_no_panic vi_read_bytes_no_panic dec_sized_payload_no_panic : no_panic.

Lemma vi_read_bytes_nonempty buf v read r2 : vi_read_bytes buf = Ok (v, read, r2) -> read <> [].
Proof.
  unfold vi_read_bytes. destruct buf as [|n r]; [discriminate|].
  destruct (10 <? n); [discriminate|]. destruct (n =? 0); [intros [= _ <- _]; discriminate|].
  destruct (_ <? n); [discriminate|]. destruct (varint _) as [v' off]. destruct (off <? 1); [discriminate|].
  intros [= _ <- _]. discriminate.
Qed.

(* a frame is never empty: the bytes of the size prefix are part of it *)
Lemma with_frame_no_panic {A} r1 (k : bytes -> bytes -> res A) :
  (forall frame r3, frame <> [] -> is_panic (k frame r3) = false) -> is_panic (with_frame r1 k) = false.
Proof.
  intros Hk. apply bind_no_panic_at; [apply vi_read_bytes_no_panic|]. intros [[value read] r2] Hvb.
  do 2 (apply if_no_panic; [reflexivity|]).
  apply bind_no_panic; [apply read_n_no_panic|]. intros [payload r3]. apply Hk.
  apply vi_read_bytes_nonempty in Hvb. destruct read; [congruence | discriminate].
Qed.

Lemma dec_pairs_no_panic n : forall rd acc, is_panic (dec_pairs n rd acc) = false.
Proof. induction n; cbn [dec_pairs]; auto 20 with no_panic. Qed.
#[local] Hint Resolve dec_pairs_no_panic : no_panic.

Lemma dec_scalar_no_panic t buf r3 : is_panic (dec_scalar t buf r3) = false.
Proof. unfold dec_scalar. auto 20 with no_panic. Qed.
#[local] Hint Resolve dec_scalar_no_panic : no_panic.

Section NoPanic.
  Variable dec_obj : bytes -> res (cval * bytes).
  Hypothesis Hdec : forall r, is_panic (dec_obj r) = false.
  Hint Resolve Hdec : no_panic.

  Lemma dec_arr_elems_no_panic fuel : forall rd acc, is_panic (dec_arr_elems dec_obj fuel rd acc) = false.
  Proof. induction fuel; cbn [dec_arr_elems]; auto 20 with no_panic. Qed.

  Lemma dec_map_entries_no_panic fuel : forall rd acc, is_panic (dec_map_entries dec_obj fuel rd acc) = false.
  Proof. induction fuel; cbn [dec_map_entries]; auto 20 with no_panic. Qed.

  Lemma dec_cfunc_fields_no_panic fuel : forall rd f, is_panic (dec_cfunc_fields dec_obj fuel rd f) = false.
  Proof. induction fuel; cbn [dec_cfunc_fields]; fold dec_pairs; auto 20 with no_panic. Qed.

  Hint Resolve dec_arr_elems_no_panic dec_map_entries_no_panic dec_cfunc_fields_no_panic : no_panic.

  (* toVarint indexes its argument and the slice expression starts after the size: both are safe
     because the frame holds at least the size prefix *)
  Lemma dec_named_no_panic t frame r3 : frame <> [] -> is_panic (dec_named t (t :: frame) r3) = false.
  Proof.
    intros Hne. apply bind_no_panic_at; [apply to_varint_no_panic; exact Hne|]. intros [size offset] Ho.
    apply to_varint_offset in Ho. cbn [tl] in Ho.
    assert (is_panic (go_slice (t :: frame) (1 + offset) (zlen (t :: frame))) = false)
      by (apply go_slice_no_panic; unfold zlen; cbn [List.length]; lia).
    auto 20 with no_panic.
  Qed.

  Lemma dec_framed_no_panic t frame r3 : frame <> [] -> is_panic (dec_framed dec_obj t (t :: frame) r3) = false.
  Proof.
    intros Hne. pose proof (dec_named_no_panic t frame r3 Hne).
    unfold dec_framed, dec_array, dec_syncmap, dec_entries, dec_cfunc. auto 20 with no_panic.
  Qed.
End NoPanic.

Theorem decode_object_no_panic fuel r : is_panic (decode_object fuel r) = false.
Proof.
  revert r. induction fuel as [|f IH]; intros r; [reflexivity|].
  destruct r as [|t r1]; [reflexivity|].
  destruct (framed_tag t) eqn:Hf.
  { rewrite decode_object_framed by exact Hf. apply with_frame_no_panic.
    intros frame r3 Hne. apply dec_framed_no_panic; assumption. }
  destruct (small_tag t) eqn:Hs.
  { rewrite decode_object_small by exact Hs. auto 20 with no_panic. }
  (* the other tags have no payload *)
  unfold framed_tag in Hf. unfold small_tag in Hs. cbn [decode_object]. rewrite Hs, Hf. auto 20 with no_panic.
Qed.

Theorem decode_no_panic r : is_panic (decode r) = false.
Proof. apply decode_object_no_panic. Qed.

Lemma read_n_app a b : read_n (zlen a) (a ++ b) = Ok (a, b).
Proof.
  unfold read_n. rewrite zlen_app_ltb.
  unfold zlen. rewrite Nat2Z.id, firstn_app_len, skipn_app_len by reflexivity. reflexivity.
Qed.

Lemma read_n_0 b : read_n 0 b = Ok ([], b).
Proof. exact (read_n_app [] b). Qed.

Lemma go_slice_app a s lo hi : lo = zlen a -> hi = lo + zlen s -> go_slice (a ++ s) lo hi = Ok s.
Proof.
  intros -> ->. rewrite go_slice_ok by (rewrite ?zlen_app; unfold zlen; lia).
  replace (zlen a + zlen s - zlen a) with (zlen s) by lia.
  unfold zlen. rewrite !Nat2Z.id, skipn_app_len, firstn_all by reflexivity. reflexivity.
Qed.

Lemma vi_to_bytes_len v : 2 <= zlen (vi_to_bytes v) <= 11.
Proof. pose proof (put_varint_len v). unfold vi_to_bytes, zlen in *. cbn [List.length]. lia. Qed.

Lemma vi_read_bytes_ok (b : bytes) v rest :
  1 <= zlen b <= 10 -> varint b = (v, zlen b) ->
  vi_read_bytes (zlen b :: b ++ rest) = Ok (v, zlen b :: b, rest).
Proof.
  intros Hl Hv. unfold vi_read_bytes.
  destruct (Z.ltb_spec 10 (zlen b)); [lia|].
  destruct (Z.eqb_spec (zlen b) 0); [lia|].
  rewrite zlen_app_ltb. unfold zlen in *. rewrite Nat2Z.id, firstn_app_len, skipn_app_len, Hv by reflexivity.
  destruct (Z.ltb_spec (Z.of_nat (List.length b)) 1); [lia|]. reflexivity.
Qed.

Lemma vi_read_bytes_to_bytes v rest :
  - 2 ^ 63 <= v < 2 ^ 63 ->
  vi_read_bytes (vi_to_bytes v ++ rest) = Ok (v, vi_to_bytes v, rest).
Proof. intros Hv. apply vi_read_bytes_ok; [apply put_varint_len | apply varint_put_nil, Hv]. Qed.

(* What maps, sync maps, functions and compiled functions write after the tag.  Strings, bytes and arrays
   (enc_sized) write the same for a body that is not empty and the one byte 0 for an empty one. *)
Definition sized (body : bytes) : bytes := vi_to_bytes (zlen body) ++ body.

Lemma sized_len t body : zlen body <= zlen (t :: sized body) <= zlen body + 12.
Proof.
  pose proof (vi_to_bytes_len (zlen body)). unfold sized, zlen in *. cbn [List.length]. rewrite app_length. lia.
Qed.

Lemma framed_fits t body : zlen (t :: sized body) < 2 ^ 63 -> zlen body < 2 ^ 63.
Proof. pose proof (sized_len t body). lia. Qed.

Lemma enc_sized_len t s : zlen s <= zlen (enc_sized t s) <= zlen s + 12.
Proof. destruct s; [unfold zlen; cbn; lia | apply sized_len]. Qed.

Lemma enc_sized_fits t s : zlen (enc_sized t s) < 2 ^ 63 -> zlen s < 2 ^ 63.
Proof. pose proof (enc_sized_len t s). lia. Qed.

Lemma with_frame_sized {A} body rest (k : bytes -> bytes -> res A) :
  zlen body < 2 ^ 63 -> with_frame (sized body ++ rest) k = k (sized body) rest.
Proof.
  intros Hb. unfold with_frame, sized.
  rewrite <- app_assoc, vi_read_bytes_to_bytes by (unfold zlen in *; lia). cbn [bind].
  rewrite zlen_ltb_0, zlen_app_ltb, read_n_app. reflexivity.
Qed.

(* an empty string, byte slice or array, and a nil sync map, are written as size 0 without a body *)
Lemma with_frame_0 {A} rest (k : bytes -> bytes -> res A) : with_frame (0 :: rest) k = k [0] rest.
Proof.
  unfold with_frame. change (vi_read_bytes (0 :: rest)) with (Ok (0, [0], rest)). cbn [bind].
  change (0 <? 0) with false. cbv iota.
  rewrite zlen_ltb_0, read_n_0. reflexivity.
Qed.

Lemma decode_sized f t body rest : framed_tag t = true -> zlen body < 2 ^ 63 ->
  decode_object (S f) ((t :: sized body) ++ rest) = dec_framed (decode_object f) t (t :: sized body) rest.
Proof. intros Ht Hb. cbn [app]. rewrite decode_object_framed, with_frame_sized by assumption. reflexivity. Qed.

Lemma decode_size0 f t rest : framed_tag t = true ->
  decode_object (S f) ([t; 0] ++ rest) = dec_framed (decode_object f) t [t; 0] rest.
Proof. intros Ht. cbn [app]. rewrite decode_object_framed, with_frame_0 by assumption. reflexivity. Qed.

Lemma decode_enc_sized f t s rest : framed_tag t = true -> zlen s < 2 ^ 63 ->
  decode_object (S f) (enc_sized t s ++ rest) = dec_framed (decode_object f) t (enc_sized t s) rest.
Proof. intros Ht Hs. destruct s; [apply decode_size0 | apply decode_sized]; assumption. Qed.

Lemma dec_sized_payload_sized t body : zlen body < 2 ^ 63 -> dec_sized_payload (t :: sized body) = Ok body.
Proof.
  intros Hb. unfold dec_sized_payload, sized.
  rewrite match_cons by (unfold vi_to_bytes; discriminate).
  rewrite to_varint_to_bytes by (unfold zlen in *; lia). cbn [bind].
  destruct (Z.leb_spec (zlen body) 0).
  { destruct body; [reflexivity | unfold zlen in *; cbn [List.length] in *; lia]. }
  destruct (_ <? zlen body) eqn:H1.
  { apply Z.ltb_lt in H1. unfold zlen in H1. cbn [List.length] in H1. rewrite app_length in H1. lia. }
  apply (go_slice_app (t :: vi_to_bytes (zlen body))); unfold zlen; cbn [List.length]; lia.
Qed.

Lemma dec_sized_payload_enc_sized t s : zlen s < 2 ^ 63 -> dec_sized_payload (enc_sized t s) = Ok s.
Proof. intros Hs. destruct s; [reflexivity | apply dec_sized_payload_sized; exact Hs]. Qed.

Lemma decode_enc_small f t p iszero rest : small_tag t = true ->
  decode_object (S f) (enc_small t p iszero ++ rest) = dec_scalar t (enc_small t p iszero) rest.
Proof.
  intros Ht. unfold enc_small. destruct iszero; cbn [app]; rewrite decode_object_small by exact Ht.
  - rewrite read_n_0. reflexivity.
  - rewrite read_n_app. reflexivity.
Qed.

Lemma dec_small_payload t p (signed : bool) z :
  (if signed then varint p else uvarint p) = (z, zlen p) -> 1 <= zlen p ->
  dec_small (t :: zlen p :: p) signed = Ok z.
Proof.
  intros Hv Hl. unfold dec_small. destruct (Z.leb_spec (zlen p) 0); [lia|].
  destruct (Z.ltb_spec (zlen (t :: zlen p :: p)) (2 + zlen p)) as [H1|_].
  { unfold zlen in H1. cbn [List.length] in H1. lia. }
  rewrite Hv. destruct (Z.ltb_spec (zlen p) 1); [lia|]. reflexivity.
Qed.

(* the value 0 is written without payload *)
Lemma dec_small_enc t p (signed : bool) z :
  (if signed then varint p else uvarint p) = (z, zlen p) -> 1 <= zlen p ->
  dec_small (enc_small t p (z =? 0)) signed = Ok z.
Proof.
  intros Hv Hl. unfold enc_small. destruct (Z.eqb_spec z 0) as [->|_]; [reflexivity | exact (dec_small_payload t p signed z Hv Hl)].
Qed.

Lemma dec_small_signed t z :
  - 2 ^ 63 <= z < 2 ^ 63 -> dec_small (enc_small t (put_varint z) (z =? 0)) true = Ok z.
Proof.
  intros Hz. apply dec_small_enc; [apply varint_put_nil, Hz | apply put_varint_len].
Qed.

Lemma dec_small_unsigned t z :
  0 <= z < 2 ^ 64 -> dec_small (enc_small t (put_uvarint 9 z) (z =? 0)) false = Ok z.
Proof.
  intros Hz. apply dec_small_enc; [|apply put_uvarint_len].
  rewrite <- (app_nil_r (put_uvarint 9 z)) at 1. apply uvarint_put. exact Hz.
Qed.

Theorem int_rt f z rest :
  - 2 ^ 63 <= z < 2 ^ 63 -> decode_object (S f) (enc_int z ++ rest) = Ok (CInt z, rest).
Proof.
  intros Hz. unfold enc_int. rewrite decode_enc_small by reflexivity.
  unfold dec_scalar. rewrite dec_small_signed by exact Hz. reflexivity.
Qed.

Theorem uint_rt f z rest :
  0 <= z < 2 ^ 64 -> decode_object (S f) (enc_uint z ++ rest) = Ok (CUint z, rest).
Proof.
  intros Hz. unfold enc_uint. rewrite decode_enc_small by reflexivity.
  unfold dec_scalar. rewrite dec_small_unsigned by exact Hz. reflexivity.
Qed.

(* floats travel as their 64 bits: every bit pattern, -0 and NaN payloads included *)
Theorem float_rt f bits rest :
  0 <= bits < 2 ^ 64 -> decode_object (S f) (enc_float bits ++ rest) = Ok (CFloat bits, rest).
Proof.
  intros Hz. unfold enc_float. rewrite decode_enc_small by reflexivity.
  unfold dec_scalar. rewrite dec_small_unsigned by exact Hz. reflexivity.
Qed.

Theorem char_rt f z rest :
  - 2 ^ 31 <= z < 2 ^ 31 -> decode_object (S f) (enc_char z ++ rest) = Ok (CChar z, rest).
Proof.
  intros Hz. unfold enc_char. rewrite decode_enc_small by reflexivity.
  assert (Hr: (z <? - 2 ^ 31) || (2 ^ 31 <=? z) = false) by lia.
  unfold dec_scalar. rewrite dec_small_signed by lia. cbn [bind]. rewrite Hr. reflexivity.
Qed.

Theorem bool_undef_rt f rest :
  decode_object (S f) (encode CUndef ++ rest) = Ok (CUndef, rest) /\
  decode_object (S f) (encode (CBool true) ++ rest) = Ok (CBool true, rest) /\
  decode_object (S f) (encode (CBool false) ++ rest) = Ok (CBool false, rest).
Proof. repeat split; reflexivity. Qed.

Theorem string_rt f s rest :
  zlen s < 2 ^ 63 -> decode_object (S f) (enc_string s ++ rest) = Ok (CStr s, rest).
Proof.
  intros Hs. unfold enc_string. rewrite decode_enc_sized by (reflexivity || exact Hs).
  unfold dec_framed. rewrite dec_sized_payload_enc_sized by exact Hs. reflexivity.
Qed.

Theorem bytes_rt f s rest :
  zlen s < 2 ^ 63 -> decode_object (S f) (enc_bytes s ++ rest) = Ok (CBytes s, rest).
Proof.
  intros Hs. unfold enc_bytes. rewrite decode_enc_sized by (reflexivity || exact Hs).
  unfold dec_framed. rewrite dec_sized_payload_enc_sized by exact Hs. reflexivity.
Qed.

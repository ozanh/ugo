(* Reading undoes writing for uvarint, varint and the length-prefixed form (vi_read, to_varint) on every 64-bit
   value; vi_read never panics, to_varint only on an empty buffer, and its offset stays inside the buffer. *)
From Coq Require Import List ZArith Bool Lia.
From Ugo Require Import Base.Res Base.ListFacts Codec.Varint.
Import ListNotations.
Local Open Scope Z_scope.

Lemma put_uvarint_length fuel x : (1 <= length (put_uvarint fuel x) <= S fuel)%nat.
Proof.
  revert x. induction fuel as [|f IH]; intros x; simpl; [lia|].
  destruct (x <? 128); simpl; [lia|]. specialize (IH (x / 128)). lia.
Qed.

Lemma put_uvarint_len x : 1 <= Z.of_nat (length (put_uvarint 9 x)) <= 10.
Proof. pose proof (put_uvarint_length 9 x). lia. Qed.
Lemma put_varint_len v : 1 <= Z.of_nat (length (put_varint v)) <= 10.
Proof. apply put_uvarint_len. Qed.

Lemma put_uvarint_bytes fuel x : 0 <= x -> Forall (fun b => 0 <= b < 256) (put_uvarint fuel x).
Proof.
  revert x. induction fuel as [|f IH]; intros x Hx; simpl.
  - constructor; [|constructor]. pose proof (Z.mod_pos_bound x 128). lia.
  - destruct (Z.ltb_spec x 128).
    + constructor; [lia | constructor].
    + constructor; [pose proof (Z.mod_pos_bound x 128); lia|]. apply IH. apply Z.div_pos; lia.
Qed.

Lemma uvarint_aux_last x rest i acc :
  0 <= x < 128 -> i <> 10 -> 0 <= acc -> acc + x * 2 ^ (7 * i) < 2 ^ 64 ->
  uvarint_aux (x :: rest) i acc (7 * i) = (acc + x * 2 ^ (7 * i), i + 1).
Proof.
  intros Hx Hi Hacc Hlt. cbn [uvarint_aux].
  destruct (Z.eqb_spec i 10); [contradiction|]. destruct (Z.ltb_spec x 128); [|lia].
  rewrite Z.mod_small by lia.
  destruct (Z.eqb_spec i 9) as [->|_]; [|reflexivity].
  (* the tenth byte may only be 0 or 1: more would not fit 64 bits *)
  destruct (Z.ltb_spec 1 x); [|reflexivity]. change (2 ^ (7 * 9)) with (2 ^ 63) in Hlt. lia.
Qed.

Lemma uvarint_aux_more r rest i acc s :
  0 <= r < 128 -> i <> 10 ->
  uvarint_aux ((r + 128) :: rest) i acc s = uvarint_aux rest (i + 1) (acc + r * 2 ^ s) (s + 7).
Proof.
  intros Hr Hi. cbn [uvarint_aux].
  destruct (Z.eqb_spec i 10); [contradiction|]. destruct (Z.ltb_spec (r + 128) 128); [lia|].
  change (r + 128) with (r + 1 * 128). rewrite Z_mod_plus_full, Z.mod_small by exact Hr. reflexivity.
Qed.

Lemma uvarint_aux_put fuel x rest i acc :
  0 <= x < 128 ^ Z.of_nat (S fuel) -> 0 <= i -> i + Z.of_nat fuel <= 9 -> 0 <= acc ->
  acc + x * 2 ^ (7 * i) < 2 ^ 64 ->
  uvarint_aux (put_uvarint fuel x ++ rest) i acc (7 * i) =
  (acc + x * 2 ^ (7 * i), i + Z.of_nat (length (put_uvarint fuel x))).
Proof.
  revert x i acc. induction fuel as [|f IH]; intros x i acc Hx Hi Hf Hacc Hlt; cbn [put_uvarint].
  - change (128 ^ Z.of_nat 1) with 128 in Hx. rewrite Z.mod_small by exact Hx. apply uvarint_aux_last; lia.
  - destruct (Z.ltb_spec x 128); [apply uvarint_aux_last; lia|].
    (* x = 128 * q + r: the byte r + 128 is written and q is left; with w the weight 2 ^ (7 * i) of this
       byte, what remains to show is linear in q * w and r * w *)
    rewrite Nat2Z.inj_succ, Z.pow_succ_r in Hx by apply Nat2Z.is_nonneg.
    pose proof (Z_div_mod_eq_full x 128) as Hqr. pose proof (Z.mod_pos_bound x 128 eq_refl) as Hr.
    set (q := x / 128) in *. set (r := x mod 128) in *.
    cbn [app length]. rewrite uvarint_aux_more by lia.
    replace (7 * i + 7) with (7 * (i + 1)) by ring.
    assert (Hw : 2 ^ (7 * (i + 1)) = 128 * 2 ^ (7 * i)).
    { rewrite Z.mul_add_distr_l, Z.add_comm. apply Z.pow_add_r; lia. }
    set (w := 2 ^ (7 * i)) in *. assert (0 < w) by (apply Z.pow_pos_nonneg; lia).
    rewrite IH by (rewrite ?Hw; lia). rewrite Hw. f_equal; lia.
Qed.

Theorem uvarint_put x rest :
  0 <= x < 2 ^ 64 ->
  uvarint (put_uvarint 9 x ++ rest) = (x, Z.of_nat (length (put_uvarint 9 x))).
Proof.
  intros Hx. unfold uvarint.
  pose proof (uvarint_aux_put 9 x rest 0 0) as H. change (7 * 0) with 0 in H. change (2 ^ 0) with 1 in H.
  rewrite H by lia. f_equal. lia.
Qed.

Lemma unzigzag_zigzag x : unzigzag (zigzag x) = x.
Proof.
  unfold zigzag, unzigzag. destruct (Z.ltb_spec x 0).
  - replace (- 2 * x - 1) with (1 + 2 * (- x - 1)) by lia.
    rewrite Z.odd_add_mul_2. cbn [Z.odd].
    replace (1 + 2 * (- x - 1) + 1) with ((- x) * 2) by lia. rewrite Z.div_mul by lia. lia.
  - replace (2 * x) with (0 + 2 * x) by lia. rewrite Z.odd_add_mul_2. cbn [Z.odd].
    replace (0 + 2 * x) with (x * 2) by lia. rewrite Z.div_mul by lia. reflexivity.
Qed.

Lemma zigzag_range x : - 2 ^ 63 <= x < 2 ^ 63 -> 0 <= zigzag x < 2 ^ 64.
Proof.
  intros H. unfold zigzag. change (2 ^ 64) with (2 * 2 ^ 63). destruct (Z.ltb_spec x 0); lia.
Qed.

Theorem varint_put x rest :
  - 2 ^ 63 <= x < 2 ^ 63 ->
  varint (put_varint x ++ rest) = (x, Z.of_nat (length (put_varint x))).
Proof.
  intros Hx. unfold varint, put_varint. rewrite uvarint_put by (apply zigzag_range; exact Hx).
  rewrite unzigzag_zigzag. reflexivity.
Qed.

Lemma varint_put_nil x : - 2 ^ 63 <= x < 2 ^ 63 -> varint (put_varint x) = (x, Z.of_nat (length (put_varint x))).
Proof. intros Hx. rewrite <- (app_nil_r (put_varint x)) at 1. apply varint_put, Hx. Qed.

Lemma uvarint_aux_n buf i x s v n :
  0 <= i -> uvarint_aux buf i x s = (v, n) -> n <= i + Z.of_nat (length buf).
Proof.
  revert i x s. induction buf as [|b r IH]; intros i x s Hi H; simpl in H.
  - inversion H; subst. simpl. lia.
  - destruct (i =? 10); [inversion H; subst; cbn [length]; lia|].
    destruct (b <? 128).
    + destruct ((i =? 9) && (1 <? b)); inversion H; subst; cbn [length]; lia.
    + apply IH in H; [|lia]. cbn [length]. lia.
Qed.

Lemma varint_n buf v n : varint buf = (v, n) -> n <= Z.of_nat (length buf).
Proof.
  unfold varint, uvarint. destruct (uvarint_aux buf 0 0 0) as [ux m] eqn:E. intros H. inversion H; subst.
  apply uvarint_aux_n in E; lia.
Qed.

Lemma vi_read_ok b v rest :
  1 <= Z.of_nat (length b) <= 11 -> varint b = (v, Z.of_nat (length b)) ->
  vi_read (Z.of_nat (length b) :: b ++ rest) = Ok (v, rest).
Proof.
  intros Hl Hv. unfold vi_read.
  destruct (Z.ltb_spec 11 (Z.of_nat (length b))); [lia|].
  destruct (Z.eqb_spec (Z.of_nat (length b)) 0); [lia|].
  rewrite app_length.
  destruct (Z.ltb_spec (Z.of_nat (length b + length rest)) (Z.of_nat (length b))); [lia|].
  rewrite Nat2Z.id, firstn_app_len, skipn_app_len, Hv by reflexivity.
  destruct (Z.ltb_spec (Z.of_nat (length b)) 1); [lia|]. reflexivity.
Qed.

Lemma to_varint_ok b v rest :
  1 <= Z.of_nat (length b) -> varint (b ++ rest) = (v, Z.of_nat (length b)) ->
  to_varint (Z.of_nat (length b) :: b ++ rest) = Ok (v, Z.of_nat (length b) + 1).
Proof.
  intros Hl Hv. unfold to_varint.
  destruct (Z.eqb_spec (Z.of_nat (length b)) 0); [lia|].
  cbn [length]. rewrite app_length.
  destruct (Z.ltb_spec (Z.of_nat (S (length b + length rest))) (1 + Z.of_nat (length b))); [lia|].
  rewrite Hv. destruct (Z.ltb_spec (Z.of_nat (length b)) 1); [lia|]. reflexivity.
Qed.

Theorem vi_read_to_bytes v rest :
  - 2 ^ 63 <= v < 2 ^ 63 -> vi_read (vi_to_bytes v ++ rest) = Ok (v, rest).
Proof.
  intros Hv. apply vi_read_ok; [pose proof (put_varint_len v); lia | apply varint_put_nil, Hv].
Qed.

Theorem to_varint_to_bytes v rest :
  - 2 ^ 63 <= v < 2 ^ 63 ->
  to_varint (vi_to_bytes v ++ rest) = Ok (v, Z.of_nat (length (vi_to_bytes v))).
Proof.
  intros Hv. unfold vi_to_bytes. cbn [length]. rewrite Nat2Z.inj_succ, <- Z.add_1_r.
  apply to_varint_ok; [apply put_varint_len | apply varint_put, Hv].
Qed.

Lemma vi_read_no_panic buf : is_panic (vi_read buf) = false.
Proof. unfold vi_read. auto 20 with no_panic. Qed.

Lemma to_varint_no_panic data : data <> [] -> is_panic (to_varint data) = false.
Proof. destruct data as [|size r]; [congruence|]. intros _. unfold to_varint. auto 20 with no_panic. Qed.

Lemma to_varint_offset data v off : to_varint data = Ok (v, off) -> 1 <= off <= Z.of_nat (length data).
Proof.
  destruct data as [|size r]; [discriminate|]. unfold to_varint.
  destruct (size =? 0).
  - intros H; inversion H; subst. cbn [length]. lia.
  - destruct (_ <? _); [discriminate|].
    destruct (varint r) as [v' off'] eqn:E. destruct (Z.ltb_spec off' 1) as [Hlt|Hge]; [discriminate|].
    intros H0; inversion H0; subst. apply varint_n in E. cbn [length]. lia.
Qed.

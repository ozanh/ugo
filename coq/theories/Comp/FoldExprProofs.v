(* C01 over FoldExpr.v.  Where ceval answers, oeval answers the same under any locals (ceval_sound), so the
   literal that fold_ok accepts for a constant sub-expression has its outcome; the rest is congruence. *)
From Coq Require Import List ZArith Bool.
From Ugo Require Import Base.Res Value.PValue Comp.Fold Comp.FoldExpr.

(* bstr_eqb of FoldExpr.v, not that of Value/Ops.v *)
Lemma bstr_eqb_eq a : forall b, bstr_eqb a b = true -> a = b.
Proof.
  induction a as [|x a IH]; intros [|y b] H; cbn in H; try discriminate; [reflexivity|].
  apply andb_prop in H as [H1 H2]. apply Byte.byte_dec_bl in H1. subst y. f_equal. apply IH. exact H2.
Qed.

Lemma sf_eqb_eq a b : sf_eqb a b = true -> a = b.
Proof.
  destruct a, b; cbn; intro H; try discriminate; try reflexivity.
  - apply eqb_prop in H. subst. reflexivity.
  - apply eqb_prop in H. subst. reflexivity.
  - apply andb_prop in H as [H H3]. apply andb_prop in H as [H1 H2].
    apply eqb_prop in H1. apply Pos.eqb_eq in H2. apply Z.eqb_eq in H3. subst. reflexivity.
Qed.

Lemma lit_eqb_eq a b : lit_eqb a b = true -> a = b.
Proof.
  destruct a, b; cbn [lit_eqb]; intro H; try discriminate; try reflexivity;
    try (apply Z.eqb_eq in H; subst; reflexivity).
  - apply sf_eqb_eq in H. subst. reflexivity.
  - apply bstr_eqb_eq in H. subst. reflexivity.
  - apply eqb_prop in H. subst. reflexivity.
Qed.

Lemma tok_eqb_eq a b : tok_eqb a b = true -> a = b.
Proof. destruct a; destruct b; try discriminate; reflexivity. Qed.

Lemma value_is_lit_sound {v l} : value_is_lit v l = true -> v = lit_value l.
Proof.
  destruct v, l; cbn [value_is_lit lit_value]; intro H; try discriminate; try reflexivity;
    try (apply Z.eqb_eq in H; subst; reflexivity).
  - apply eqb_prop in H. subst. reflexivity.
  - apply sf_eqb_eq in H. subst. reflexivity.
  - apply bstr_eqb_eq in H. subst. reflexivity.
Qed.

(* cbind and ctruth are bind with "not constant" as a further outcome; the first hypothesis has the shape of
   the induction hypothesis of ceval_sound *)
Lemma cbind_sound {A} x (f : pvalue -> option (res A)) ra (g : pvalue -> res A) r :
  (forall r', x = Some r' -> ra = r') -> (forall v r', f v = Some r' -> g v = r') ->
  cbind x f = Some r -> bind ra g = r.
Proof.
  intros Hx Hf H. destruct x as [rx|]; [|discriminate]. rewrite (Hx rx eq_refl).
  destruct rx; cbn [cbind bind] in *; first [apply Hf, H | injection H as <-; reflexivity].
Qed.

Lemma ctruth_sound {A} v (f : bool -> option (res A)) (g : bool -> res A) r :
  (forall t r', f t = Some r' -> g t = r') -> ctruth v f = Some r -> bind (otruthy v) g = r.
Proof.
  intros Hf H. unfold ctruth in H.
  destruct (otruthy v); cbn [bind]; first [apply Hf, H | injection H as <-; reflexivity].
Qed.

Lemma cbind2_sound {A} xa xb (h : pvalue -> pvalue -> res A) ra rb r :
  (forall r', xa = Some r' -> ra = r') -> (forall r', xb = Some r' -> rb = r') ->
  cbind xa (fun va => cbind xb (fun vb => Some (h va vb))) = Some r -> bind ra (fun va => bind rb (h va)) = r.
Proof.
  intros Ha Hb. apply cbind_sound; [exact Ha|]. intros va r'.
  apply cbind_sound; [exact Hb|]. intros vb r'' [= <-]. reflexivity.
Qed.

Lemma ceval_sound e : forall r locals, ceval e = Some r -> oeval locals e = r.
Proof.
  induction e as [l|i|t a IHa b IHb|a IHa b IHb|a IHa b IHb|t a IHa|a IHa b IHb|a IHa b IHb|c IHc a IHa b IHb|id];
    intros r locals; cbn [ceval oeval].
  - (* OLit *) intros [= <-]. reflexivity.
  - (* OVar *) discriminate.
  - (* OBin *) apply cbind2_sound; intro; [apply IHa | apply IHb].
  - (* OEq *) apply cbind2_sound; intro; [apply IHa | apply IHb].
  - (* ONe *) apply cbind2_sound; intro; [apply IHa | apply IHb].
  - (* OUn *) apply cbind_sound; [intro; apply IHa|]. intros va r' [= <-]. reflexivity.
  - (* OAnd *) apply cbind_sound; [intro; apply IHa|]. intros va r'.
    apply ctruth_sound. intros [|] r''; [apply IHb | intros [= <-]; reflexivity].
  - (* OOr *) apply cbind_sound; [intro; apply IHa|]. intros va r'.
    apply ctruth_sound. intros [|] r''; [intros [= <-]; reflexivity | apply IHb].
  - (* OCond *) apply cbind_sound; [intro; apply IHc|]. intros vc r'.
    apply ctruth_sound. intros [|] r''; [apply IHa | apply IHb].
  - (* OOther *) discriminate.
Qed.

Lemma const_value_sound {e l} locals : const_value_is e l = true -> oeval locals e = Ok (lit_value l).
Proof.
  unfold const_value_is. destruct (ceval e) as [[v| | |]|] eqn:E; try discriminate.
  intros H. rewrite (ceval_sound e _ locals E), (value_is_lit_sound H). reflexivity.
Qed.

Lemma const_truth_sound {c b} locals :
  const_truth_is c b = true -> exists v, oeval locals c = Ok v /\ otruthy v = Ok b.
Proof.
  unfold const_truth_is. intro H. destruct (ceval c) as [[v| | |]|] eqn:E; try discriminate.
  exists v. split; [apply (ceval_sound c _ locals E)|]. destruct (otruthy v) as [t| | |]; try discriminate.
  apply eqb_prop in H. subst. reflexivity.
Qed.

Theorem fold_ok_sound e : forall e' locals, fold_ok e e' = true -> oeval locals e' = oeval locals e.
Proof.
  induction e as [l|i|t a IHa b IHb|a IHa b IHb|a IHa b IHb|t a IHa|a IHa b IHb|a IHa b IHb|c IHc a IHa b IHb|id];
    intros e' locals H; cbn [fold_ok] in H;
    (* a constant expression replaced by the literal of its value *)
    (apply orb_prop in H as [H|H]; [destruct e'; try discriminate H; symmetry; exact (const_value_sound locals H)|]);
    destruct e' as [l'|i'|t' a' b'|a' b'|a' b'|t' a'|a' b'|a' b'|c' a' b'|id']; try discriminate H; cbn [oeval].
  (* e' has the constructor of e *)
  - (* OLit *) apply lit_eqb_eq in H. subst. reflexivity.
  - (* OVar *) apply Nat.eqb_eq in H. subst. reflexivity.
  - (* OBin *) apply andb_prop in H as [H Hb]. apply andb_prop in H as [Ht Ha]. apply tok_eqb_eq in Ht. subst t'.
    rewrite (IHa _ locals Ha), (IHb _ locals Hb). reflexivity.
  - (* OEq *) apply andb_prop in H as [Ha Hb]. rewrite (IHa _ locals Ha), (IHb _ locals Hb). reflexivity.
  - (* ONe *) apply andb_prop in H as [Ha Hb]. rewrite (IHa _ locals Ha), (IHb _ locals Hb). reflexivity.
  - (* OUn *) apply andb_prop in H as [Ht Ha]. apply tok_eqb_eq in Ht. subst t'. rewrite (IHa _ locals Ha). reflexivity.
  - (* OAnd *) apply andb_prop in H as [Ha Hb]. rewrite (IHa _ locals Ha), (IHb _ locals Hb). reflexivity.
  - (* OOr *) apply andb_prop in H as [Ha Hb]. rewrite (IHa _ locals Ha), (IHb _ locals Hb). reflexivity.
  - (* OCond *) apply andb_prop in H as [H Hb]. apply andb_prop in H as [Hc Ha].
    rewrite (IHa _ locals Ha), (IHb _ locals Hb).
    apply orb_prop in Hc as [Hc|Hc]; [rewrite (IHc _ locals Hc); reflexivity|].
    (* the condition replaced by the literal of its truth value *)
    destruct c' as [[| | | |bv| |]| | | | | | | | |]; try discriminate.
    destruct (const_truth_sound locals Hc) as (v & Ev & Et). rewrite Ev.
    cbn [oeval lit_value bind]. rewrite Et.
    destruct bv; reflexivity.
  - (* OOther *) reflexivity.
Qed.

Lemma const_error_subexprs e :
  const_error e = existsb (fun s => match ceval s with Some (Ok _) | None => false | Some _ => true end) (subexprs e).
Proof.
  induction e as [l|i|t a IHa b IHb|a IHa b IHb|a IHa b IHb|t a IHa|a IHa b IHb|a IHa b IHb|c IHc a IHa b IHb|id];
    cbn [const_error subexprs existsb]; rewrite ?existsb_app, ?orb_false_r;
    try rewrite IHa; try rewrite IHb; try rewrite IHc; rewrite ?orb_assoc; reflexivity.
Qed.

Lemma const_error_witness e :
  const_error e = true ->
  exists s, In s (subexprs e) /\ (forall locals, match oeval locals s with Ok _ => False | _ => True end).
Proof.
  rewrite const_error_subexprs. intros H. apply existsb_exists in H as (s & Hin & Hs).
  exists s. split; [exact Hin|]. intros locals.
  destruct (ceval s) as [r|] eqn:E; [|discriminate]. rewrite (ceval_sound s r locals E).
  destruct r; [discriminate | exact I ..].
Qed.

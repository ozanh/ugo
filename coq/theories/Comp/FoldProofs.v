(* Soundness of the folding tables against the operator model (C01). *)
From Coq Require Import ZArith Floats.SpecFloat.
From Ugo Require Import Base.Res Base.GoFloat Value.Ops Comp.Fold.
Local Open Scope Z_scope.

Theorem fold_binop_sound t l r e :
  fold_binop t l r = Some e -> binop t (lit_value l) (lit_value r) = Ok (lit_value e).
Proof.
  destruct l as [a|a|a|a|a|a| ], r as [b|b|b|b|b|b| ]; simpl; try discriminate.
  - (* ints *) unfold fold_binop_ints, int_int_binop, int_binop. cbn [andb].
    destruct t; try discriminate; try (intros [= <-]; reflexivity).
    (* left: / and % (a zero divisor is refused, as by the VM), << and >> (a negative count) *)
    + destruct (b =? 0); [discriminate|]. intros [= <-]. reflexivity.
    + destruct (b =? 0); [discriminate|]. intros [= <-]. reflexivity.
    + destruct (b <? 0); [discriminate|]. intros [= <-]. reflexivity.
    + destruct (b <? 0); [discriminate|]. intros [= <-]. reflexivity.
  - (* floats: / refuses a zero divisor *) unfold fold_binop_floats, float_float_binop. destruct t; try discriminate; try (intros [= <-]; reflexivity).
    destruct (feqb b (S754_zero false)); [discriminate|]. intros [= <-]. reflexivity.
  - (* strings *) destruct t; try discriminate. intros [= <-]. reflexivity.
Qed.

Theorem fold_unop_sound t x e :
  fold_unop t x = Some e -> unop t (lit_value x) = Ok (lit_value e).
Proof.
  destruct x as [a|a|a|a|a|a| ]; simpl; try discriminate; destruct t; try discriminate;
    intros [= <-]; reflexivity.
Qed.

(* the table never folds where the VM raises an error: a refused fold leaves the expression
   to be evaluated (and possibly rejected) by the evaluator, it is never turned into a value *)
Theorem fold_binop_only_ok t l r e :
  fold_binop t l r = Some e -> exists v, binop t (lit_value l) (lit_value r) = Ok v.
Proof. intros H. eexists. apply fold_binop_sound. exact H. Qed.

(* literal conditions: the rewrite to a BoolLit agrees with run-time truthiness *)
Theorem literal_falsy_sound e : is_falsy (lit_value e) = Some (is_literal_falsy e).
Proof. destruct e; reflexivity. Qed.


(* C12 for file modules: the name FileImporter gives to an import is the place the import denotes
   (fi_name_resolve); rendered as a string it still tells places apart (render_inj); so, with the
   compiler's module store, one file gets one module index. *)
From Coq Require Import List Ascii String ZArith.
From Ugo Require Import Comp.ImportPath Comp.ModStore Comp.ModStoreProofs.
Import ListNotations.

(* an element that walk pushes and a later ".." removes *)
Definition plain (s : string) : Prop := is_skip s = false /\ is_up s = false.
(* what a stack of a relative walk holds: plain elements and ".." *)
Definition kept (s : string) : Prop := is_skip s = false.

Lemma up_not_skip s : is_up s = true -> is_skip s = false.
Proof.
  unfold is_up, is_skip. intro H. apply String.eqb_eq in H. subst s. reflexivity.
Qed.

Lemma walk_app acc abs xs ys : walk acc abs (xs ++ ys) = walk (walk acc abs xs) abs ys.
Proof.
  revert acc. induction xs as [|s xs IH]; intro acc; cbn [app walk]; [reflexivity|].
  destruct (is_skip s); [apply IH|].
  destruct (is_up s).
  - destruct acc as [|a acc']; [destruct abs; apply IH|].
    destruct (is_up a); apply IH.
  - apply IH.
Qed.

Lemma walk_forall (P : string -> Prop) acc abs l :
  Forall P acc -> Forall P l -> Forall P (walk acc abs l).
Proof.
  revert acc. induction l as [|s l IH]; intros acc Ha Hl; cbn [walk]; [assumption|].
  inversion Hl; subst.
  destruct (is_skip s); [apply IH; assumption|].
  destruct (is_up s).
  - destruct acc as [|a acc']; [destruct abs; apply IH; auto|].
    inversion Ha; subst. destruct (is_up a); apply IH; auto.
  - apply IH; auto.
Qed.

(* the stack holds the innermost segment first: walking the path it spells pushes it back *)
Lemma walk_plain acc abs r : Forall plain r -> walk acc abs (rev r) = r ++ acc.
Proof.
  revert acc. induction r as [|a r IH]; intros acc Hr; [reflexivity|].
  inversion Hr as [|? ? [Ha1 Ha2] Hr']; subst.
  cbn [rev]. rewrite walk_app, IH by assumption.
  cbn [walk]. rewrite Ha1, Ha2. reflexivity.
Qed.

Lemma walk_abs_plain acc l : Forall plain acc -> Forall plain (walk acc true l).
Proof.
  revert acc. induction l as [|s l IH]; intros acc Hacc; cbn [walk]; [assumption|].
  destruct (is_skip s) eqn:Hs; [apply IH; assumption|].
  destruct (is_up s) eqn:Hu.
  - destruct acc as [|a acc']; [apply IH; constructor|].
    inversion Hacc as [|? ? [Ha1 Ha2] Hacc']; subst. rewrite Ha2. apply IH; assumption.
  - apply IH. constructor; [split; assumption|assumption].
Qed.

Lemma norm_abs_idem l : norm true (norm true l) = norm true l.
Proof.
  unfold norm. rewrite walk_plain by (apply walk_abs_plain; constructor).
  rewrite app_nil_r. reflexivity.
Qed.

(* a relative stack: kept elements, and below a ".." only ".." *)
Fixpoint rel_stack (r : list string) : Prop :=
  match r with
  | [] => True
  | a :: r' => kept a /\ (is_up a = true -> Forall (fun b => is_up b = true) r') /\ rel_stack r'
  end.

Lemma rel_stack_walk r l : rel_stack r -> rel_stack (walk r false l).
Proof.
  revert r. induction l as [|s l IH]; intros r Hr; cbn [walk]; [assumption|].
  destruct (is_skip s) eqn:Hs; [apply IH; assumption|].
  destruct (is_up s) eqn:Hu.
  - destruct r as [|a r'].
    + apply IH. cbn. repeat split; [exact Hs | constructor].
    + destruct Hr as (Ha & Hall & Hr'). destruct (is_up a) eqn:Hua.
      * apply IH. cbn. repeat split; [exact Hs | | exact Ha | (intros _; apply Hall; reflexivity) | exact Hr'].
        intros _. constructor; [exact Hua | apply Hall; reflexivity].
      * apply IH. exact Hr'.
  - apply IH. cbn. repeat split; [exact Hs | | exact Hr]. intro H; congruence.
Qed.

Lemma walk_rel_stack_step acc abs r s :
  rel_stack r -> walk acc abs (rev r ++ [s]) = walk acc abs (rev (walk r false [s])).
Proof.
  intros Hr. cbn [walk]. destruct (is_skip s) eqn:Hs; [rewrite walk_app; cbn [walk]; rewrite Hs; reflexivity|].
  destruct (is_up s) eqn:Hu; [|reflexivity].
  destruct r as [|a r']; [reflexivity|]. destruct (is_up a) eqn:Hua; [reflexivity|].
  (* a was pushed, ".." removes it *)
  destruct Hr as (Ha & _ & _). cbn [rev]. rewrite <- app_assoc, walk_app. cbn [app walk].
  rewrite Ha, Hua, Hs, Hu. reflexivity.
Qed.

(* cleaning a relative path first changes nothing for a later walk, from any stack *)
Lemma walk_norm_rel acc abs xs : walk acc abs (norm false xs) = walk acc abs xs.
Proof.
  unfold norm. induction xs as [|s xs IH] using rev_ind; [reflexivity|].
  (* the last element apart: before it the induction hypothesis, s itself by walk_rel_stack_step *)
  rewrite (walk_app acc), <- IH, <- walk_app, (walk_app []).
  symmetry. apply walk_rel_stack_step, rel_stack_walk. exact I.
Qed.

Theorem fi_name_resolve cwd wd name :
  p_abs cwd = true ->
  fi_name cwd wd name = {| p_abs := true; p_segs := resolve cwd wd name |}.
Proof.
  intro Hc. unfold fi_name, resolve.
  destruct (p_abs name) eqn:Hn.
  - unfold clean. rewrite Hn. reflexivity.
  - unfold abs_path, join at 1. cbn [p_abs].
    destruct (p_abs wd) eqn:Hw.
    + (* Abs cleans what Join has cleaned *)
      unfold clean, join. cbn [p_abs p_segs]. rewrite Hw. rewrite norm_abs_idem. reflexivity.
    + (* Join cleans wd/name as a relative path before Abs joins it to cwd *)
      unfold join. cbn [p_abs p_segs]. rewrite Hc, Hw. f_equal.
      unfold norm at 1. rewrite walk_app, walk_norm_rel, <- walk_app. reflexivity.
Qed.

Corollary fi_name_same_place cwd wd1 n1 wd2 n2 :
  p_abs cwd = true ->
  (fi_name cwd wd1 n1 = fi_name cwd wd2 n2 <-> resolve cwd wd1 n1 = resolve cwd wd2 n2).
Proof.
  intro Hc. rewrite !fi_name_resolve by assumption. split.
  - intro H. inversion H. reflexivity.
  - intro H. rewrite H. reflexivity.
Qed.

(* the name is clean: asking for the name of a name gives it back, whatever the work directory
   (the compiler passes Name() to Fork and to Import) *)
Lemma fi_name_stable cwd wd wd' name :
  p_abs cwd = true -> fi_name cwd wd' (fi_name cwd wd name) = fi_name cwd wd name.
Proof.
  intro Hc. rewrite (fi_name_resolve cwd wd name Hc).
  unfold fi_name, clean. cbn [p_abs p_segs]. f_equal.
  unfold resolve. destruct (p_abs name); [apply norm_abs_idem|].
  destruct (p_abs wd); apply norm_abs_idem.
Qed.

(* the name as a string: "/" in front of every element.  From here on ++ joins strings, not lists. *)
Local Open Scope string_scope.
Fixpoint render (l : list string) : string :=
  match l with
  | [] => ""
  | s :: r => "/" ++ s ++ render r
  end.

Fixpoint noslash (s : string) : Prop :=
  match s with
  | EmptyString => True
  | String c r => c <> "/"%char /\ noslash r
  end.

Definition tail_ok (t : string) : Prop := forall c u, t = String c u -> c = "/"%char.

Lemma render_tail_ok l : tail_ok (render l).
Proof. destruct l; intros c u E; [discriminate | injection E as <- _; reflexivity]. Qed.

Lemma elem_split s1 : forall s2 t1 t2,
  noslash s1 -> noslash s2 -> tail_ok t1 -> tail_ok t2 ->
  s1 ++ t1 = s2 ++ t2 -> s1 = s2 /\ t1 = t2.
Proof.
  induction s1 as [|c1 s1 IH]; intros [|c2 s2] t1 t2 H1 H2 Ht1 Ht2 E; cbn in E.
  - split; [reflexivity | exact E].
  - destruct (proj1 H2 (Ht1 _ _ E)).
  - destruct (proj1 H1 (Ht2 _ _ (eq_sym E))).
  - injection E as <- E. destruct (IH s2 t1 t2 (proj2 H1) (proj2 H2) Ht1 Ht2 E) as [<- <-]. split; reflexivity.
Qed.

Lemma render_inj l1 : forall l2,
  Forall noslash l1 -> Forall noslash l2 -> render l1 = render l2 -> l1 = l2.
Proof.
  induction l1 as [|s1 r1 IH]; intros l2 H1 H2 E; destruct l2 as [|s2 r2];
    [reflexivity | discriminate | discriminate |].
  cbn in E. inversion E as [E'].
  inversion H1; subst. inversion H2; subst.
  destruct (elem_split s1 s2 (render r1) (render r2)) as [-> Er];
    [assumption | assumption | apply render_tail_ok | apply render_tail_ok | exact E' |].
  f_equal. apply IH; assumption.
Qed.

Lemma resolve_noslash cwd wd name :
  Forall noslash (p_segs cwd) -> Forall noslash (p_segs wd) -> Forall noslash (p_segs name) ->
  Forall noslash (resolve cwd wd name).
Proof.
  intros Hc Hw Hn. unfold resolve, norm.
  destruct (p_abs name); [|destruct (p_abs wd)];
    apply Forall_rev; apply walk_forall; try constructor; repeat (apply Forall_app; split); assumption.
Qed.

(* the key of the compiler's module store for an import *)
Definition fi_key (cwd wd name : path) : string := render (p_segs (fi_name cwd wd name)).

Theorem fi_key_same_place cwd wd1 n1 wd2 n2 :
  p_abs cwd = true ->
  Forall noslash (p_segs cwd) ->
  Forall noslash (p_segs wd1) -> Forall noslash (p_segs n1) ->
  Forall noslash (p_segs wd2) -> Forall noslash (p_segs n2) ->
  (fi_key cwd wd1 n1 = fi_key cwd wd2 n2 <-> resolve cwd wd1 n1 = resolve cwd wd2 n2).
Proof.
  intros Hc Sc S1 S2 S3 S4. unfold fi_key. rewrite !fi_name_resolve by assumption. cbn [p_segs].
  split; [|intros ->; reflexivity].
  apply render_inj; apply resolve_noslash; assumption.
Qed.

(* 1: the type addModule records for a module compiled from source (compileImportExpr) *)
Definition file_reqs (cwd : path) (reqs : list (path * path * Z)) : list (string * Z * Z) :=
  map (fun r => (fi_key cwd (fst (fst r)) (snd (fst r)), 1%Z, snd r)) reqs.

Theorem file_modules_indexed_by_place cwd reqs ms its :
  p_abs cwd = true -> Forall noslash (p_segs cwd) ->
  Forall (fun r => Forall noslash (p_segs (fst (fst r))) /\ Forall noslash (p_segs (snd (fst r)))) reqs ->
  import_all empty_store (file_reqs cwd reqs) = (ms, its) ->
  forall i j wd1 n1 c1 wd2 n2 c2 it1 it2,
    nth_error reqs i = Some (wd1, n1, c1) -> nth_error reqs j = Some (wd2, n2, c2) ->
    nth_error its i = Some it1 -> nth_error its j = Some it2 ->
    (m_index it1 = m_index it2 <-> resolve cwd wd1 n1 = resolve cwd wd2 n2).
Proof.
  intros Hc Sc Hall H i j wd1 n1 c1 wd2 n2 c2 it1 it2 R1 R2 I1 I2.
  destruct (module_index_unique _ _ _ H i j _ _ it1 it2
              (map_nth_error _ _ _ R1) (map_nth_error _ _ _ R2) I1 I2) as [E _].
  cbn [fst snd] in E. rewrite E.
  rewrite Forall_forall in Hall.
  destruct (Hall _ (nth_error_In _ _ R1)) as [S1 S2].
  destruct (Hall _ (nth_error_In _ _ R2)) as [S3 S4]. cbn [fst snd] in *.
  apply fi_key_same_place; assumption.
Qed.

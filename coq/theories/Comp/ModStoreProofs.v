(* C12 over ModStore.v: the indexes the compiler's module store hands out, and the run-time cache
   protocol.  For the protocol there is one theorem, about the run of a tree of import events
   (exec_nested_ok); atomic events are trees without branches, and the protocol without throws is
   the one with throws in which no body throws. *)
From Coq Require Import List ZArith String Lia.
From Ugo Require Import Base.ListFacts Comp.ModStore.
Import ListNotations.
Local Open Scope Z_scope.

Lemma Forall2_nth_error {A B} {R : A -> B -> Prop} {l l' k a b} :
  Forall2 R l l' -> nth_error l k = Some a -> nth_error l' k = Some b -> R a b.
Proof.
  intros H. revert k. induction H as [|x y l l' Hxy _ IH]; intros [|k] H1 H2; simpl in *; try discriminate.
  - injection H1 as <-. injection H2 as <-. exact Hxy.
  - exact (IH k H1 H2).
Qed.

Definition store_ok (ms : mstore) : Prop :=
  0 <= ms_count ms /\
  (forall n it, get_module (ms_items ms) n = Some it -> 0 <= m_index it < ms_count ms) /\
  (forall n1 n2 it1 it2, get_module (ms_items ms) n1 = Some it1 -> get_module (ms_items ms) n2 = Some it2 ->
                         m_index it1 = m_index it2 -> n1 = n2).

Lemma store_ok_empty : store_ok empty_store.
Proof. repeat split; simpl; try lia; intros; discriminate. Qed.

Lemma add_module_ok ms n typ cidx : store_ok ms -> store_ok (fst (add_module ms n typ cidx)).
Proof.
  intros (Hc & Hr & Hu). unfold store_ok. cbn [add_module fst ms_items ms_count get_module]. split; [lia | split].
  - intros n0 it0 Hg. destruct (String.eqb n0 n).
    + injection Hg as <-. cbn [m_index]. lia.
    + apply Hr in Hg. lia.
  - intros n1 n2 it1 it2 H1 H2 Hi. destruct (String.eqb n1 n) eqn:E1, (String.eqb n2 n) eqn:E2.
    + apply String.eqb_eq in E1, E2. congruence.
    + injection H1 as <-. apply Hr in H2. cbn [m_index] in Hi. lia.
    + injection H2 as <-. apply Hr in H1. cbn [m_index] in Hi. lia.
    + exact (Hu _ _ _ _ H1 H2 Hi).
Qed.

Lemma import_module_ok {ms n typ cidx ms' it} :
  import_module ms n typ cidx = (ms', it) -> store_ok ms ->
  store_ok ms' /\ get_module (ms_items ms') n = Some it /\
  (forall n0 it0, get_module (ms_items ms) n0 = Some it0 -> get_module (ms_items ms') n0 = Some it0).
Proof.
  unfold import_module. destruct (get_module (ms_items ms) n) as [it0|] eqn:E; intros [= <- <-] Hok.
  - auto.
  - split; [exact (add_module_ok ms n typ cidx Hok)|]. cbn [add_module ms_items get_module].
    rewrite String.eqb_refl. split; [reflexivity|].
    intros n0 it0 Hg. destruct (String.eqb n0 n) eqn:E0; [|exact Hg]. apply String.eqb_eq in E0. congruence.
Qed.

Lemma import_all_ok {reqs ms ms' its} :
  import_all ms reqs = (ms', its) -> store_ok ms ->
  store_ok ms' /\ (forall n0 it0, get_module (ms_items ms) n0 = Some it0 -> get_module (ms_items ms') n0 = Some it0) /\
  Forall2 (fun r it => get_module (ms_items ms') (fst (fst r)) = Some it) reqs its.
Proof.
  revert ms ms' its. induction reqs as [|[[n typ] cidx] r IH]; intros ms ms' its H Hok; cbn [import_all] in H.
  - injection H as <- <-. auto.
  - destruct (import_module ms n typ cidx) as [ms1 it] eqn:E1.
    destruct (import_all ms1 r) as [ms2 its2] eqn:E2. injection H as <- <-.
    destruct (import_module_ok E1 Hok) as (Hok1 & Hg1 & Hm1). destruct (IH _ _ _ E2 Hok1) as (Hok2 & Hm2 & Hf).
    split; [exact Hok2 | split; [auto | constructor; [apply Hm2, Hg1 | exact Hf]]].
Qed.

(* distinct module names get distinct cache indexes, equal names the same index, whatever the
   order in which the import expressions of the main script, functions and modules are compiled *)
Theorem module_index_unique reqs ms its :
  import_all empty_store reqs = (ms, its) ->
  forall i j r1 r2 it1 it2,
    nth_error reqs i = Some r1 -> nth_error reqs j = Some r2 ->
    nth_error its i = Some it1 -> nth_error its j = Some it2 ->
    (m_index it1 = m_index it2 <-> fst (fst r1) = fst (fst r2)) /\ 0 <= m_index it1 < ms_count ms.
Proof.
  intros H i j r1 r2 it1 it2 Hr1 Hr2 Hi1 Hi2.
  destruct (import_all_ok H store_ok_empty) as ((Hc & Hr & Hu) & _ & Hf).
  pose proof (Forall2_nth_error Hf Hr1 Hi1) as G1. pose proof (Forall2_nth_error Hf Hr2 Hi2) as G2. cbn beta in G1, G2.
  split; [split|].
  - exact (Hu _ _ _ _ G1 G2).
  - intros E. rewrite E in G1. congruence.
  - exact (Hr _ _ G1).
Qed.

(* c: the cache; d: the modules whose body has returned, in order *)
Definition cache_ok (c : list (option Z)) (d : list Z) : Prop :=
  NoDup d /\ forall i, nth_error c i = Some None -> ~ In (Z.of_nat i) d.

Lemma cache_ok_init n : cache_ok (repeat None n) [].
Proof.
  split; [constructor | intros i _ []].
Qed.

Lemma nth_error_set_nth_same {i} v {l o} : nth_error l i = Some o -> nth_error (set_nth_opt i v l) i = Some (Some v).
Proof. revert l. induction i as [|i IH]; intros [|h t] H; try discriminate; [reflexivity | exact (IH t H)]. Qed.

Lemma nth_error_set_nth_other i j v l : i <> j -> nth_error (set_nth_opt i v l) j = nth_error l j.
Proof.
  revert j l. induction i as [|i IH]; intros j [|h t] H; simpl; try reflexivity.
  - destruct j; [congruence | reflexivity].
  - destruct j; [reflexivity|]. simpl. apply IH. congruence.
Qed.

Lemma NoDup_snoc {A} (l : list A) x : NoDup l -> ~ In x l -> NoDup (l ++ [x]).
Proof.
  intros H1 H2. apply (proj2 (NoDup_Add (Add_app x l []))). rewrite app_nil_r. split; assumption.
Qed.

(* STOREMODULE i on an empty entry *)
Lemma cache_ok_store {c d i} v :
  cache_ok c d -> nth_error c i = Some None -> cache_ok (set_nth_opt i v c) (d ++ [Z.of_nat i]).
Proof.
  intros (Hnd & Hn) E. split; [apply NoDup_snoc; auto|].
  intros j Hj. destruct (Nat.eq_dec i j) as [->|Hne].
  - rewrite (nth_error_set_nth_same v E) in Hj. discriminate.
  - rewrite nth_error_set_nth_other in Hj by exact Hne. rewrite in_app_iff.
    intros [Hin|[Hin|[]]]; [exact (Hn _ Hj Hin)|]. apply Nat2Z.inj in Hin. congruence.
Qed.

(* L: the modules being loaded *)
Definition keeps (L : list nat) (c c' : list (option Z)) : Prop :=
  (forall j x, nth_error c j = Some (Some x) -> nth_error c' j = Some (Some x)) /\
  (forall j, In j L -> nth_error c' j = nth_error c j).

Lemma keeps_refl L c : keeps L c c.
Proof. split; auto. Qed.

Lemma keeps_trans {L c1 c2 c3} : keeps L c1 c2 -> keeps L c2 c3 -> keeps L c1 c3.
Proof. intros [A1 B1] [A2 B2]. split; [auto|]. intros j Hj. rewrite (B2 j Hj). exact (B1 j Hj). Qed.

Lemma keeps_tail {i L c c'} : keeps (i :: L) c c' -> keeps L c c'.
Proof. intros [A B]. split; [exact A|]. intros j Hj. apply B. right. exact Hj. Qed.

Lemma keeps_store {L c i} v : nth_error c i = Some None -> ~ In i L -> keeps L c (set_nth_opt i v c).
Proof.
  intros E HiL. split; intros j.
  - (* j is full, i empty *) intros x Hj. rewrite nth_error_set_nth_other; congruence.
  - (* j is being loaded, i is not *) intros Hj. rewrite nth_error_set_nth_other; congruence.
Qed.

(* no import event names a module that an enclosing event is loading *)
Fixpoint noreentry (loading : list nat) (e : iev) : Prop :=
  match e with
  | IEv i _ body =>
      ~ In i loading /\
      (fix all (l : list iev) : Prop := match l with [] => True | x :: r => noreentry (i :: loading) x /\ all r end) body
  end.

Lemma noreentry_body L i th body :
  noreentry L (IEv i th body) <-> ~ In i L /\ Forall (noreentry (i :: L)) body.
Proof.
  cbn [noreentry]. apply and_iff_compat_l, all_Forall.
Qed.

Lemma noreentry_atomic i th : noreentry [] (IEv i th []).
Proof. apply noreentry_body. split; [apply in_nil | constructor]. Qed.

Definition ev_module (e : iev) : nat := match e with IEv i _ _ => i end.

(* the run of one import event, whatever is nested in it and whichever bodies throw *)
Theorem exec_nested_ok fuel {L e s s' v} :
  exec_nested fuel s e = (s', v) -> noreentry L e -> cache_ok (t_cache s) (t_done s) ->
  cache_ok (t_cache s') (t_done s') /\ keeps L (t_cache s) (t_cache s') /\
  (forall x, v = Some x -> nth_error (t_cache s') (ev_module e) = Some (Some x)).
Proof.
  revert L e s s' v. induction fuel as [|f IH]; intros L [i th body] s s' v H Hn Hok; cbn [exec_nested] in H.
  { injection H as <- <-. split; [exact Hok | split; [apply keeps_refl | discriminate]]. }
  apply noreentry_body in Hn as [HiL Hbody]. cbn [ev_module].
  destruct (nth_error (t_cache s) i) as [[x|]|] eqn:E.
  - (* the module is loaded already: its object, no change *)
    injection H as <- <-. split; [exact Hok | split; [apply keeps_refl|]]. intros y [= <-]. exact E.
  - (* the body runs: its events one after the other, then the store *)
    assert (Hfold : forall bl st, Forall (noreentry (i :: L)) bl -> cache_ok (t_cache st) (t_done st) ->
              let st' := fold_left (fun st0 ev => fst (exec_nested f st0 ev)) bl st in
              cache_ok (t_cache st') (t_done st') /\ keeps (i :: L) (t_cache st) (t_cache st')).
    { induction bl as [|b bl IHb]; intros st Hall Hst; cbn [fold_left]; [split; [exact Hst | apply keeps_refl]|].
      apply Forall_cons_iff in Hall as [Hb Hall]. destruct (exec_nested f st b) as [stb vb] eqn:Eb. cbn [fst].
      destruct (IH _ _ _ _ _ Eb Hb Hst) as (Hokb & Kb & _). destruct (IHb stb Hall Hokb) as (Hok' & K').
      split; [exact Hok' | exact (keeps_trans Kb K')]. }
    set (s1 := {| t_cache := t_cache s; t_runs := t_runs s ++ [Z.of_nat i]; t_done := t_done s |}) in H.
    destruct (Hfold body s1 Hbody Hok) as (Hok2 & K2). cbn [s1 t_cache] in K2.
    destruct th; injection H as <- <-; cbn [t_cache t_done].
    + split; [exact Hok2 | split; [exact (keeps_tail K2) | discriminate]].
    + (* i is being loaded around the body: its entry is still empty *)
      assert (E2 := proj2 K2 i (or_introl eq_refl)). rewrite E in E2.
      split; [exact (cache_ok_store _ Hok2 E2)|]. split.
      * exact (keeps_trans (keeps_tail K2) (keeps_store _ E2 HiL)).
      * intros x [= <-]. exact (nth_error_set_nth_same _ E2).
  - (* no such module: no value, no change *)
    injection H as <- <-. split; [exact Hok | split; [apply keeps_refl | discriminate]].
Qed.

Lemma exec_import_t_nested s i th : exec_import_t s (i, th) = exec_nested 1 s (IEv i th []).
Proof.
  unfold exec_import_t. cbn [exec_nested fold_left].
  destruct (nth_error (t_cache s) i) as [[x|]|]; reflexivity.
Qed.

Lemma exec_imports_t_ok {evs s s' vs} :
  exec_imports_t s evs = (s', vs) -> cache_ok (t_cache s) (t_done s) ->
  cache_ok (t_cache s') (t_done s') /\ keeps [] (t_cache s) (t_cache s') /\
  (* every import of a module sees the object that ends up in the cache *)
  Forall2 (fun e v => forall x, v = Some x -> nth_error (t_cache s') (fst e) = Some (Some x)) evs vs.
Proof.
  revert s s' vs. induction evs as [|[i th] r IH]; intros s s' vs H Hok; cbn [exec_imports_t] in H.
  - injection H as <- <-. split; [exact Hok | split; [apply keeps_refl | constructor]].
  - destruct (exec_import_t s (i, th)) as [s1 v] eqn:E1. destruct (exec_imports_t s1 r) as [s2 vs2] eqn:E2.
    injection H as <- <-. rewrite exec_import_t_nested in E1.
    destruct (exec_nested_ok 1 E1 (noreentry_atomic i th) Hok) as (Hok1 & K1 & Hv).
    destruct (IH _ _ _ E2 Hok1) as (Hok2 & K2 & Hf).
    split; [exact Hok2 | split; [exact (keeps_trans K1 K2) | constructor; [|exact Hf]]].
    intros x Hx. apply (proj1 K2), Hv, Hx.
Qed.

(* whatever bodies throw: a body returns at most once per module, and all imports of a module
   that give a value give the same object *)
Theorem body_completes_at_most_once n evs s vs :
  exec_imports_t (init_tstate n) evs = (s, vs) ->
  NoDup (t_done s) /\
  (forall a b i t1 t2 x y, nth_error evs a = Some (i, t1) -> nth_error evs b = Some (i, t2) ->
                     nth_error vs a = Some (Some x) -> nth_error vs b = Some (Some y) -> x = y).
Proof.
  intros H. destruct (exec_imports_t_ok H (cache_ok_init n)) as ((Hnd & _) & _ & Hf).
  split; [exact Hnd|]. intros a b i t1 t2 x y Ha Hb Hx Hy.
  pose proof (Forall2_nth_error Hf Ha Hx x eq_refl) as G1.
  pose proof (Forall2_nth_error Hf Hb Hy y eq_refl) as G2. cbn [fst] in *. congruence.
Qed.

(* a body that does not throw: its start is a return *)
Lemma exec_import_t_no_throw s i : let s' := fst (exec_import_t s (i, false)) in t_runs s = t_done s -> t_runs s' = t_done s'.
Proof.
  unfold exec_import_t. destruct (nth_error (t_cache s) i) as [[x|]|]; cbn [fst t_runs t_done]; congruence.
Qed.

Lemma no_throw_runs_done {evs s s' vs} :
  exec_imports_t s evs = (s', vs) -> forallb (fun e => negb (snd e)) evs = true -> t_runs s = t_done s ->
  t_runs s' = t_done s'.
Proof.
  revert s s' vs. induction evs as [|[i th] r IH]; intros s s' vs H Hn Hs; cbn [exec_imports_t] in H.
  - injection H as <- _. exact Hs.
  - cbn [forallb snd] in Hn. apply andb_prop in Hn as [Hth Hn]. destruct th; [discriminate|].
    apply (exec_import_t_no_throw s i) in Hs. destruct (exec_import_t s (i, false)) as [s1 v].
    destruct (exec_imports_t s1 r) as [s2 vs2] eqn:E2. injection H as <- _. exact (IH _ _ _ E2 Hn Hs).
Qed.

Definition rstate_of (s : tstate) : rstate := {| cache := t_cache s; execs := t_done s |}.

Lemma exec_imports_no_throw is : forall s,
  exec_imports (rstate_of s) is = let '(s', vs) := exec_imports_t s (map (fun i => (i, false)) is) in (rstate_of s', vs).
Proof.
  induction is as [|i r IH]; intros s; [reflexivity|]. cbn [map exec_imports exec_imports_t].
  replace (exec_import (rstate_of s) i) with (let '(s1, v) := exec_import_t s (i, false) in (rstate_of s1, v)).
  - destruct (exec_import_t s (i, false)) as [s1 v]. rewrite IH. destruct (exec_imports_t s1 _). reflexivity.
  - unfold exec_import, exec_import_t, rstate_of. cbn [cache execs].
    destruct (nth_error (t_cache s) i) as [[x|]|]; reflexivity.
Qed.

(* within one run, for any execution order of import sites, the body of a module executes at
   most once and every import of it evaluates to the same object *)
Theorem body_at_most_once n is s vs :
  exec_imports (init_rstate n) is = (s, vs) ->
  NoDup (execs s) /\
  (forall a b i x y, nth_error is a = Some i -> nth_error is b = Some i ->
                     nth_error vs a = Some (Some x) -> nth_error vs b = Some (Some y) -> x = y).
Proof.
  intros H. change (init_rstate n) with (rstate_of (init_tstate n)) in H. rewrite exec_imports_no_throw in H.
  destruct (exec_imports_t (init_tstate n) _) as [s' vs'] eqn:E. injection H as <- <-.
  destruct (body_completes_at_most_once _ _ _ _ E) as [Hnd Hsame]. split; [exact Hnd|].
  intros a b i x y Ha Hb. apply (Hsame a b i false false); apply (map_nth_error (fun i => (i, false))); assumption.
Qed.

(* Local slot allocation of the symbol table (C02): over every history of operations, the local
   variables that are live together in one function occupy distinct stack slots below the
   function's NumLocals, although slots are re-used after a block is left. *)
From Coq Require Import List ZArith String Lia.
From Ugo Require Import Comp.SymTab Comp.SymTabProofs.
Import ListNotations.
Local Open Scope Z_scope.

Definition is_local (sym : symbol) : bool := match s_scope sym with ScLocal => true | _ => false end.

(* locals of a table lie in [base, base + numdef) and have pairwise distinct slots *)
Definition table_ok (base : Z) (t : table) : Prop :=
  0 <= t_numdef t /\
  (forall n sym, lookup n (t_store t) = Some sym -> is_local sym = true -> base <= s_index sym < base + t_numdef t) /\
  (forall n1 n2 sym1 sym2, lookup n1 (t_store t) = Some sym1 -> lookup n2 (t_store t) = Some sym2 ->
     is_local sym1 = true -> is_local sym2 = true -> s_index sym1 = s_index sym2 -> n1 = n2).

(* a block table continues the numbering of the tables below it, a function table starts at 0 *)
Definition base_of (rest : stack) (t : table) : Z := if t_block t then next_index rest else 0.

Fixpoint slots_ok (s : stack) : Prop :=
  match s with
  | [] => True
  | t :: rest => table_ok (base_of rest t) t /\ slots_ok rest
  end.

Lemma next_index_cons t rest : next_index (t :: rest) = base_of rest t + t_numdef t.
Proof. unfold base_of. simpl. destruct (t_block t); lia. Qed.

Lemma table_ok_empty base b d : table_ok base (empty_table b d).
Proof. unfold table_ok, empty_table. cbn [t_store t_numdef]. split; [lia|]. split; intros; discriminate. Qed.

Lemma table_ok_sub base t t' :
  (forall n sym, lookup n (t_store t') = Some sym -> is_local sym = true -> lookup n (t_store t) = Some sym) ->
  t_numdef t' = t_numdef t -> table_ok base t -> table_ok base t'.
Proof.
  intros Hs Hn (H0 & Ha & Hb). unfold table_ok. rewrite Hn. split; [exact H0|]. split.
  - intros n sym Hl L. exact (Ha n sym (Hs _ _ Hl L) L).
  - intros n1 n2 s1 s2 H1 H2 L1 L2. apply (Hb n1 n2); auto.
Qed.

Lemma table_ok_local base t n : table_ok base t -> table_ok base (with_local t n (base + t_numdef t)).
Proof.
  intros [H0 [Ha Hb]]. unfold table_ok, with_local, put_shadow, bump_numdef. cbn [t_store t_numdef]. split; [lia|]. split.
  - intros m s0 Hl Hloc. rewrite lookup_put in Hl. destruct (String.eqb m n).
    + inversion Hl; subst. cbn [s_index]. lia.
    + specialize (Ha _ _ Hl Hloc). lia.
  - intros n1 n2 s1 s2 H1 H2 L1 L2 E. rewrite lookup_put in H1, H2.
    destruct (String.eqb n1 n) eqn:E1, (String.eqb n2 n) eqn:E2.
    + apply String.eqb_eq in E1, E2. congruence.
    + inversion H1; subst. cbn [s_index] in E. specialize (Ha _ _ H2 L2). lia.
    + inversion H2; subst. cbn [s_index] in E. specialize (Ha _ _ H1 L1). lia.
    + eapply Hb; eassumption.
Qed.

Lemma quiet_table_ok {base r t t'} : quiet r t t' -> table_ok base t -> table_ok base t'.
Proof.
  intros Q. apply table_ok_sub; [|exact (proj1 (quiet_numdef Q))]. intros m x Hl L.
  destruct Q as [E|n sym E _ _ Hnl|names E]; unfold content in E; injection E as Es _ _ _; rewrite Es in Hl.
  - exact Hl.
  - cbn [put_shadow t_store] in Hl. rewrite lookup_put in Hl. destruct (String.eqb m n); [|exact Hl].
    injection Hl as <-. unfold is_local in L. destruct (s_scope sym); congruence.
  - apply lookup_disable in Hl. apply Hl.
Qed.

Lemma evolves_slots s s' : evolves s s' -> slots_ok s -> slots_ok s'.
Proof.
  induction 1 as [|t t' r r' Q E IH]; [auto|]. intros [Ht Hr]. split; [|auto].
  (* the base of t has not moved *)
  replace (base_of r' t') with (base_of r t); [exact (quiet_table_ok Q Ht)|].
  unfold base_of. rewrite (proj2 (quiet_numdef Q)), (evolves_next_index E). reflexivity.
Qed.

Lemma move_slots s s' : move s s' -> slots_ok s -> slots_ok s'.
Proof.
  intros [t r b|t u r|t r n _|s0 s0' E]; [| | |apply evolves_slots; exact E]; cbn [slots_ok].
  - (* fork *) intros H. split; [apply table_ok_empty | exact H].
  - (* leave *) tauto.
  - (* local *) intros [Ht Hr]. split; [|exact Hr]. rewrite next_index_cons. apply table_ok_local, Ht.
Qed.

Lemma run_ops_slots ops : forall s, slots_ok s -> slots_ok (fst (run_ops s ops)).
Proof. apply history_invariant, move_slots. Qed.

Lemma slots_new : slots_ok new_symbol_table.
Proof. split; [apply table_ok_empty | exact I]. Qed.

(* the tables of the innermost function: the current block tables and the function's own table *)
Fixpoint fn_segment (s : stack) : list (table * stack) :=
  match s with
  | [] => []
  | t :: rest => (t, rest) :: (if t_block t then fn_segment rest else [])
  end.

Lemma slots_ok_numdef_nonneg s : slots_ok s -> 0 <= next_index s.
Proof.
  induction s as [|t r IH]; intros H; simpl; [lia|]. destruct H as [[H0 _] Hr]. specialize (IH Hr). destruct (t_block t); lia.
Qed.

Lemma segment_below {s t rest n sym} :
  slots_ok s -> In (t, rest) (fn_segment s) -> lookup n (t_store t) = Some sym -> is_local sym = true ->
  s_index sym < next_index s.
Proof.
  induction s as [|t0 r IH]; intros H Hin Hl L; [destruct Hin|].
  destruct H as [Ht Hr]. rewrite next_index_cons.
  destruct Hin as [[= <- <-]|Hin].
  - apply (proj1 (proj2 Ht)) in Hl; [lia | exact L].
  - destruct (t_block t0) eqn:Eb; [|destruct Hin]. specialize (IH Hr Hin Hl L).
    unfold base_of. rewrite Eb. destruct Ht as [H0 _]. lia.
Qed.

(* two local variables visible in the current function (declared in its own table or in any
   enclosing block of it) never share a slot unless they are the same declaration: the locals of a
   block table start at the next_index of what lies below it *)
Theorem live_locals_distinct_in s :
  slots_ok s ->
  forall t1 r1 t2 r2 n1 n2 sym1 sym2,
    In (t1, r1) (fn_segment s) -> In (t2, r2) (fn_segment s) ->
    lookup n1 (t_store t1) = Some sym1 -> lookup n2 (t_store t2) = Some sym2 ->
    is_local sym1 = true -> is_local sym2 = true ->
    s_index sym1 = s_index sym2 -> List.length r1 = List.length r2 /\ n1 = n2.
Proof.
  induction s as [|t0 r IH]; intros H t1 r1 t2 r2 n1 n2 sym1 sym2 I1 I2 L1 L2 K1 K2 E; [destruct I1|].
  simpl in I1, I2. destruct H as [Ht Hr]. pose proof Ht as (_ & Ha & Hb). unfold base_of in Ha.
  destruct I1 as [[= <- <-]|I1], I2 as [[= <- <-]|I2].
  - split; [reflexivity|]. eapply Hb; eassumption.
  - destruct (t_block t0); [|destruct I2].
    specialize (Ha _ _ L1 K1). pose proof (segment_below Hr I2 L2 K2). lia.
  - destruct (t_block t0); [|destruct I1].
    specialize (Ha _ _ L2 K2). pose proof (segment_below Hr I1 L1 K1). lia.
  - destruct (t_block t0); [|destruct I1]. eapply IH; eassumption.
Qed.

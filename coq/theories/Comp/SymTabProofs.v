(* The symbol table machine over all operation histories.  What the operations do to the stack of
   tables is said once, as four kinds of moves; an invariant of the machine is a property of
   stacks that every move keeps.  Proved this way: the invariant behind C13, the stability of
   top-level names (C10) and, in SlotProofs.v, the slot invariant of C02. *)
From Coq Require Import List ZArith Bool String Relations.Relation_Operators.
From Ugo Require Import Gen.Builtins Comp.SymTab.
Import ListNotations.
Local Open Scope Z_scope.

Lemma fst_let {A B C} (p : A * B) (f : B -> C) : fst (let '(a, b) := p in (a, f b)) = fst p.
Proof. destruct p; reflexivity. Qed.

Lemma lookup_remove n m st : lookup n (remove m st) = if String.eqb n m then None else lookup n st.
Proof.
  induction st as [|[k v] r IH]; simpl; [destruct (String.eqb n m); reflexivity|].
  destruct (String.eqb m k) eqn:E.
  - apply String.eqb_eq in E. subst k. rewrite IH. destruct (String.eqb n m); reflexivity.
  - simpl. rewrite IH. destruct (String.eqb n k) eqn:E2; [|reflexivity].
    apply String.eqb_eq in E2. subst k. rewrite String.eqb_sym, E. reflexivity.
Qed.

Lemma lookup_put n m sym st :
  lookup n ((m, sym) :: remove m st) = if String.eqb n m then Some sym else lookup n st.
Proof. simpl. rewrite lookup_remove. destruct (String.eqb n m); reflexivity. Qed.

Lemma lookup_put_new n m sym st x :
  lookup m st = None -> lookup n st = Some x -> lookup n ((m, sym) :: remove m st) = Some x.
Proof.
  intros Hm H. rewrite lookup_put. destruct (String.eqb n m) eqn:E; [|exact H].
  apply String.eqb_eq in E. congruence.
Qed.

Lemma mem_app n a b : mem n (a ++ b) = mem n a || mem n b.
Proof. apply existsb_app. Qed.

(* the step that disable_builtin folds over the names, written inline there *)
Definition disable_one (st : list (string * symbol)) (n : string) : list (string * symbol) :=
  match lookup n st with
  | Some sym => match s_scope sym with ScBuiltin => remove n st | _ => st end
  | None => st
  end.

Lemma lookup_disable_one m st n x :
  lookup n (disable_one st m) = Some x <->
  lookup n st = Some x /\ (s_scope x = ScBuiltin -> String.eqb n m = false).
Proof.
  unfold disable_one. destruct (String.eqb n m) eqn:E.
  - apply String.eqb_eq in E. subst m.
    destruct (lookup n st) as [sm|] eqn:Em; [|intuition congruence].
    destruct (s_scope sm) eqn:Es; try (rewrite Em; intuition congruence).
    rewrite lookup_remove, String.eqb_refl. split; [discriminate|]. intros [[= <-] B]. discriminate (B Es).
  - replace (lookup n _) with (lookup n st); [tauto|].
    destruct (lookup m st) as [sm|]; [destruct (s_scope sm)|]; try reflexivity.
    rewrite lookup_remove, E. reflexivity.
Qed.

Lemma lookup_disable names : forall st n x,
  lookup n (fold_left disable_one names st) = Some x <->
  lookup n st = Some x /\ (s_scope x = ScBuiltin -> mem n names = false).
Proof.
  induction names as [|m r IH]; intros st n x; cbn [fold_left]; [intuition|].
  rewrite IH, lookup_disable_one. change (mem n (m :: r)) with (String.eqb n m || mem n r).
  rewrite orb_false_iff. tauto.
Qed.

(* what the invariants read of a table; the other fields are bookkeeping to them *)
Definition content (t : table) := (t_store t, t_disabled t, t_numdef t, t_block t).

Definition with_local (t : table) (n : string) (idx : Z) : table :=
  put_shadow (bump_numdef t) n {| s_name := n; s_index := idx; s_scope := ScLocal; s_const := false |}.

(* Changes of a table that keep its number of definitions and its block flag; r: the tables
   below it.  q_put: that the name is new matters at the root only (quiet_root_keeps); above it
   define_free stores under the name of the symbol found below, and that this is the name looked
   up, hence new, would take an invariant "key = s_name" of its own.  No local symbol: those
   take a slot (mv_local; SlotProofs.v). *)
Inductive quiet (r : stack) (t t' : table) : Prop :=
| q_counters : content t' = content t -> quiet r t t'
| q_put n sym : content t' = content (put_shadow t n sym) ->
                lookup n (t_store t) = None \/ r <> [] ->
                s_scope sym <> ScBuiltin -> s_scope sym <> ScLocal -> quiet r t t'
| q_disable names : content t' = (fold_left disable_one names (t_store t), t_disabled t ++ names,
                                  t_numdef t, t_block t) -> quiet r t t'.

Arguments q_put {r t t'} n sym.
Arguments q_disable {r t t'} names.

Inductive evolves : stack -> stack -> Prop :=
| ev_nil : evolves [] []
| ev_cons t t' r r' : quiet r t t' -> evolves r r' -> evolves (t :: r) (t' :: r').

Inductive move : stack -> stack -> Prop :=
| mv_fork t r b : move (t :: r) (empty_table b (t_disable_params t) :: t :: r)
| mv_leave t u r : move (t :: u :: r) (u :: r)
| mv_local t r n : lookup n (t_store t) = None -> move (t :: r) (with_local t n (next_index (t :: r)) :: r)
| mv_quiet s s' : evolves s s' -> move s s'.

Definition moves : stack -> stack -> Prop := clos_refl_trans stack move.

Lemma same_content_evolves : forall s s', map content s' = map content s -> evolves s s'.
Proof.
  induction s as [|t r IH]; intros [|t' r'] E; try discriminate; [constructor|]. cbn [map] in E.
  constructor; [apply q_counters | apply IH]; congruence.
Qed.

Lemma evolves_refl s : evolves s s.
Proof. apply same_content_evolves. reflexivity. Qed.

Lemma evolves_length s s' : evolves s s' -> List.length s' = List.length s.
Proof. induction 1; cbn [List.length]; congruence. Qed.

Lemma evolves_head r t t' : quiet r t t' -> evolves (t :: r) (t' :: r).
Proof. intros Q. constructor; [exact Q | apply evolves_refl]. Qed.

Lemma quiet_numdef {r t t'} : quiet r t t' -> t_numdef t' = t_numdef t /\ t_block t' = t_block t.
Proof. intros [E|n sym E _ _ _|names E]; unfold content in E; injection E as _ _ En Eb; split; assumption. Qed.

Lemma evolves_next_index {s s'} : evolves s s' -> next_index s' = next_index s.
Proof.
  induction 1 as [|t t' r r' Q _ IH]; [reflexivity|]. destruct (quiet_numdef Q) as [En Eb].
  simpl. rewrite IH, En, Eb. reflexivity.
Qed.

Lemma update_max_content s k : map content (update_max s k) = map content s.
Proof.
  induction s as [|t r IH]; [reflexivity|]. cbn [update_max].
  destruct (t_block t) eqn:B; cbn [map]; rewrite ?IH; f_equal; unfold content; cbn [t_store t_disabled t_numdef t_block]; rewrite B; reflexivity.
Qed.

Lemma update_max_evolves s k : evolves s (update_max s k).
Proof. apply same_content_evolves, update_max_content. Qed.

Lemma define_free_quiet r t orig : r <> [] -> quiet r t (fst (define_free t orig)).
Proof.
  intros H. apply (q_put (s_name orig) (snd (define_free t orig))); [reflexivity | right; exact H | |]; discriminate.
Qed.

Lemma resolve_evolves s n : evolves s (fst (resolve s n)).
Proof.
  induction s as [|t r IH]; cbn [resolve]; [constructor|].
  destruct (lookup n (t_store t)); [apply evolves_refl|].
  destruct r as [|u r'].
  - destruct (mem n (t_disabled t)); [|destruct (builtin_index n builtins_map)]; apply evolves_refl.
  - destruct (resolve (u :: r') n) as [r1 [sym|]]; cbn [fst] in IH.
    + destruct (negb (t_block t) && _).
      * change (evolves (t :: u :: r') (fst (define_free t sym) :: r1)).
        constructor; [apply define_free_quiet; discriminate | exact IH].
      * constructor; [apply q_counters; reflexivity | exact IH].
    + constructor; [apply q_counters; reflexivity | exact IH].
Qed.

Lemma disable_evolves s names : evolves s (disable_builtin s names).
Proof.
  induction s as [|t r IH]; [constructor|]. destruct r as [|u r'].
  - apply evolves_head, (q_disable names). reflexivity.
  - change (disable_builtin (t :: u :: r') names) with (t :: disable_builtin (u :: r') names).
    constructor; [apply q_counters; reflexivity | exact IH].
Qed.

Lemma local_moves t r n :
  lookup n (t_store t) = None ->
  moves (t :: r) (update_max (with_local t n (next_index (t :: r)) :: r) (next_index (t :: r) + 1)).
Proof.
  intros H. eapply rt_trans; apply rt_step; [apply mv_local; exact H | apply mv_quiet, update_max_evolves].
Qed.

Lemma define_local_moves s n : moves s (fst (define_local s n)).
Proof.
  destruct s as [|t r]; [apply rt_refl|]. unfold define_local.
  destruct (lookup n (t_store t)) eqn:E; [apply rt_refl | apply local_moves; exact E].
Qed.

Lemma define_const_moves s n : moves s (fst (define_const_lit s n)).
Proof.
  destruct s as [|t r]; [apply rt_refl|]. unfold define_const_lit.
  destruct (lookup n (t_store t)) eqn:E; [apply rt_refl|].
  apply rt_step, mv_quiet, evolves_head. eapply q_put; [reflexivity | left; exact E | |]; discriminate.
Qed.

Lemma define_global_moves s n : moves s (fst (define_global s n)).
Proof.
  destruct s as [|t [|u r]]; try apply rt_refl. unfold define_global.
  destruct (lookup n (t_store t)) as [sym|] eqn:E; [destruct (s_scope sym); apply rt_refl|].
  apply rt_step, mv_quiet, evolves_head. eapply q_put; [reflexivity | left; exact E | |]; discriminate.
Qed.

Lemma set_params_go_moves ps : forall s, moves s (fst (set_params_go ps s)).
Proof.
  induction ps as [|p ps IH]; intros [|t r]; try apply rt_refl. cbn [set_params_go].
  destruct (lookup p (t_store t)) eqn:E; [apply rt_refl|].
  eapply rt_trans; [apply local_moves; exact E | apply IH].
Qed.

Lemma set_params_moves s ps : moves s (fst (set_params s ps)).
Proof.
  unfold set_params. destruct ps as [|p ps]; [apply rt_refl|]. destruct s as [|t r]; [apply rt_refl|].
  destruct (0 <? t_numparams t); [apply rt_refl|].
  destruct (t_disable_params t); [apply rt_refl|].
  destruct (existsb _ (p :: ps)); [apply rt_refl|].
  destruct (0 <? t_numdef t); [apply rt_refl|].
  eapply rt_trans; [|apply set_params_go_moves].
  apply rt_step, mv_quiet, evolves_head, q_counters. reflexivity.
Qed.

Lemma apply_op_moves s o : moves s (fst (apply_op s o)).
Proof.
  destruct o as [b| |n|n|n|n|ps|ns]; cbn [apply_op]; rewrite ?fst_let.
  - destruct s; [apply rt_refl | apply rt_step, mv_fork].
  - destruct s as [|t [|u r]]; try apply rt_refl. apply rt_step, mv_leave.
  - apply rt_step, mv_quiet, resolve_evolves.
  - apply define_local_moves.
  - apply define_global_moves.
  - apply define_const_moves.
  - apply set_params_moves.
  - apply rt_step, mv_quiet, disable_evolves.
Qed.

Lemma run_ops_cons s o r : fst (run_ops s (o :: r)) = fst (run_ops (fst (apply_op s o)) r).
Proof. cbn [run_ops]. destruct (apply_op s o). apply fst_let. Qed.

Lemma moves_invariant (P : stack -> Prop) :
  (forall s s', move s s' -> P s -> P s') -> forall s s', moves s s' -> P s -> P s'.
Proof. intros HP s s'. induction 1; eauto. Qed.

Theorem history_invariant (P : stack -> Prop) :
  (forall s s', move s s' -> P s -> P s') -> forall ops s, P s -> P (fst (run_ops s ops)).
Proof.
  intros HP. induction ops as [|o r IH]; intros s H; [exact H|].
  rewrite run_ops_cons. exact (IH _ (moves_invariant P HP _ _ (apply_op_moves s o) H)).
Qed.

Definition is_builtin_scope (sym : symbol) : bool := match s_scope sym with ScBuiltin => true | _ => false end.

Lemma is_builtin_scope_true sym : is_builtin_scope sym = true <-> s_scope sym = ScBuiltin.
Proof. unfold is_builtin_scope. destruct (s_scope sym); split; congruence. Qed.

(* C13's invariant *)
Definition root_ok (t : table) : Prop :=
  forall n sym, lookup n (t_store t) = Some sym -> is_builtin_scope sym = true -> mem n (t_disabled t) = false.
Definition nonroot_ok (t : table) : Prop :=
  forall n sym, lookup n (t_store t) = Some sym -> is_builtin_scope sym = false.

Fixpoint inv (s : stack) : Prop :=
  match s with
  | [] => True
  | [t] => root_ok t
  | t :: rest => nonroot_ok t /\ inv rest
  end.

(* what inv asks of a table that lies on r *)
Definition tinv (r : stack) (t : table) : Prop := match r with [] => root_ok t | _ => nonroot_ok t end.

Lemma inv_cons t r : inv (t :: r) <-> tinv r t /\ inv r.
Proof. destruct r; simpl; tauto. Qed.

(* every builtin symbol of t' was one of t, under a name as disabled as before *)
Lemma tinv_sub r t t' :
  (forall n sym, lookup n (t_store t') = Some sym -> is_builtin_scope sym = true ->
                 lookup n (t_store t) = Some sym /\ mem n (t_disabled t') = mem n (t_disabled t)) ->
  tinv r t -> tinv r t'.
Proof.
  intros H. destruct r; cbn [tinv]; intros Hok n sym Hl.
  - intros Hb. destruct (H _ _ Hl Hb) as [A B]. rewrite B. exact (Hok _ _ A Hb).
  - destruct (is_builtin_scope sym) eqn:Hb; [|reflexivity]. rewrite <- Hb. exact (Hok _ _ (proj1 (H _ _ Hl Hb))).
Qed.

Lemma builtin_before_put {st m new n sym} :
  lookup n ((m, new) :: remove m st) = Some sym -> is_builtin_scope sym = true -> s_scope new <> ScBuiltin ->
  lookup n st = Some sym.
Proof.
  rewrite lookup_put. destruct (String.eqb n m); [|auto].
  intros [= <-] Hb Hn. apply is_builtin_scope_true in Hb. contradiction.
Qed.

Lemma quiet_tinv {r t t'} : quiet r t t' -> tinv r t -> tinv r t'.
Proof.
  intros Q. apply tinv_sub. intros n sym Hl Hb.
  destruct Q as [E|m new E _ Hnb _|names E]; unfold content in E; injection E as Es Ed _ _; rewrite Es in Hl; rewrite Ed.
  - auto.
  - split; [|reflexivity]. exact (builtin_before_put Hl Hb Hnb).
  - apply lookup_disable in Hl as [A B]. apply is_builtin_scope_true in Hb.
    rewrite mem_app, (B Hb), orb_false_r. auto.
Qed.

Lemma evolves_inv s s' : evolves s s' -> inv s -> inv s'.
Proof.
  induction 1 as [|t t' r r' Q E IH]; [auto|]. rewrite !inv_cons. intros [Ht Hr]. split; [|auto].
  apply (quiet_tinv Q) in Ht. (* r and r' are empty together *) destruct E; exact Ht.
Qed.

Lemma move_inv s s' : move s s' -> inv s -> inv s'.
Proof.
  intros [t r b|t u r|t r n Hn|s0 s0' E]; [| | |apply evolves_inv; exact E]; rewrite !inv_cons.
  - (* fork *) intros H. split; [|exact H]. intros n sym Hl. discriminate.
  - (* leave *) tauto.
  - (* local *) intros [Ht Hr]. split; [|exact Hr]. revert Ht. apply tinv_sub. intros m sym Hl Hb.
    split; [|reflexivity]. apply (builtin_before_put Hl Hb). discriminate.
Qed.

Lemma run_ops_inv ops : forall s, inv s -> inv (fst (run_ops s ops)).
Proof. apply history_invariant, move_inv. Qed.

Lemma inv_new : inv new_symbol_table.
Proof. intros n sym Hl. discriminate. Qed.

Lemma root_disabled_ext s1 s2 : map t_disabled s1 = map t_disabled s2 -> root_disabled s1 = root_disabled s2.
Proof.
  revert s2. induction s1 as [|t1 r1 IH]; intros [|t2 r2] H; simpl in *; try discriminate; auto.
  inversion H as [[H1 H2]]. destruct r1, r2; try discriminate; auto.
Qed.

(* the symbol comes from the root's store (root_ok) or from the builtin table after the test against
   the disabled set; the tables above hold no builtin symbol (nonroot_ok) and hand on what they
   get from below as it is or as a free variable *)
Theorem resolve_not_disabled s n s' sym :
  inv s -> resolve s n = (s', Some sym) -> s_scope sym = ScBuiltin -> mem n (root_disabled s) = false.
Proof.
  revert s' sym. induction s as [|t r IH]; intros s' sym; cbn [resolve]; [discriminate|].
  rewrite inv_cons. intros [Ht Hr].
  destruct (lookup n (t_store t)) as [x|] eqn:El.
  - intros [= _ ->] Hb. apply is_builtin_scope_true in Hb. destruct r; cbn [tinv] in Ht.
    + exact (Ht _ _ El Hb).
    + rewrite (Ht _ _ El) in Hb. discriminate.
  - destruct r as [|u r'].
    + cbn [root_disabled]. destruct (mem n (t_disabled t)); [discriminate | reflexivity].
    + change (root_disabled (t :: u :: r')) with (root_disabled (u :: r')).
      destruct (resolve (u :: r') n) as [r1 [x|]]; [|discriminate].
      destruct (negb (t_block t) && _).
      * unfold define_free. intros [= _ <-]. discriminate.
      * intros [= _ <-]. exact (IH r1 x Hr eq_refl).
Qed.

Fixpoint root_table (s : stack) : option table :=
  match s with
  | [] => None
  | [t] => Some t
  | _ :: rest => root_table rest
  end.

Definition root_lookup (s : stack) (n : string) : option symbol :=
  match root_table s with Some t => lookup n (t_store t) | None => None end.

Definition non_builtin (sym : symbol) : Prop := is_builtin_scope sym = false.

Lemma root_lookup_cons t r n : r <> [] -> root_lookup (t :: r) n = root_lookup r n.
Proof. destruct r; [congruence | reflexivity]. Qed.

Lemma root_lookup_content n : forall s s', map content s' = map content s -> root_lookup s' n = root_lookup s n.
Proof.
  induction s as [|t r IH]; intros [|t' r'] E; try discriminate; [reflexivity|]. cbn [map] in E.
  destruct r, r'; try discriminate.
  - unfold root_lookup, content in *. cbn [root_table]. congruence.
  - rewrite !root_lookup_cons by discriminate. apply IH. congruence.
Qed.

Lemma quiet_root_keeps {t t' n x} :
  quiet [] t t' -> lookup n (t_store t) = Some x -> is_builtin_scope x = false -> lookup n (t_store t') = Some x.
Proof.
  intros [E|m new E [Hm|Hm] _ _|names E] H Hb; unfold content in E; injection E as Es _ _ _; rewrite Es.
  - (* counters *) exact H.
  - (* a put under a new name *) apply lookup_put_new; assumption.
  - (* a put above other tables: not the root *) congruence.
  - (* DisableBuiltin *) apply lookup_disable. split; [exact H|]. intros B. apply is_builtin_scope_true in B. congruence.
Qed.

Lemma evolves_root_lookup {s s' n x} :
  evolves s s' -> root_lookup s n = Some x -> is_builtin_scope x = false -> root_lookup s' n = Some x.
Proof.
  intros E H Hb. induction E as [|t t' r r' Q E IH]; [exact H|]. destruct E.
  - exact (quiet_root_keeps Q H Hb).
  - rewrite root_lookup_cons in * by discriminate. exact (IH H).
Qed.

Lemma move_root_lookup n x s s' :
  is_builtin_scope x = false -> move s s' -> root_lookup s n = Some x -> root_lookup s' n = Some x.
Proof.
  intros Hb [t r b|t u r|t r m Hm|s0 s0' E] H.
  - rewrite root_lookup_cons by discriminate. exact H.
  - rewrite root_lookup_cons in H by discriminate. exact H.
  - destruct r; [|exact H]. apply lookup_put_new; assumption.
  - exact (evolves_root_lookup E H Hb).
Qed.

(* a non-builtin symbol bound at the top level is never rebound or removed by any later
   operation: variables, constants and globals declared by an earlier fragment keep their slot
   and scope in every later fragment *)
Theorem root_symbol_stable_history ops : forall s n x,
  root_lookup s n = Some x -> is_builtin_scope x = false ->
  root_lookup (fst (run_ops s ops)) n = Some x.
Proof.
  intros s n x H Hb. revert s H.
  apply (history_invariant (fun s => root_lookup s n = Some x)). intros s s'. apply move_root_lookup, Hb.
Qed.

(* Proofs about the conversion model (property C20).  The container cases of to_object_gen are mapM over the
   elements; the list inductions are those of the mapM lemmas of Base/Res.v. *)
From Coq Require Import List ZArith Lia Floats.SpecFloat.
From Ugo Require Import Base.Res Base.ListFacts Base.GoFloat Value.PValue Conv.GoValue.
Import ListNotations.

Lemma to_object_gen_slice' alt b l :
  to_object_gen alt (GSliceAny b l) =
  (do r <- mapM (to_object_gen alt) l; Ok (PArr r)).
Proof.
  simpl. f_equal. induction l as [|x xs IH]; simpl; [reflexivity|].
  destruct (to_object_gen alt x); simpl; try reflexivity. rewrite IH. reflexivity.
Qed.

Lemma to_object_gen_slice alt l :
  to_object_gen alt (GSliceAny false l) =
  (do r <- mapM (to_object_gen alt) l; Ok (PArr r)).
Proof. apply to_object_gen_slice'. Qed.

Lemma to_object_gen_map alt b l :
  to_object_gen alt (GMapAny b l) =
  (do r <- mapM (fun kv => do y <- to_object_gen alt (snd kv); Ok (fst kv, y)) l; Ok (PMap r)).
Proof.
  simpl. f_equal. induction l as [|[k x] xs IH]; simpl; [reflexivity|].
  destruct (to_object_gen alt x); simpl; try reflexivity. rewrite IH. reflexivity.
Qed.

(* values on which ToObjectAlt inverts ToInterface: no Char anywhere *)
Fixpoint char_free (v : pvalue) : bool :=
  match v with
  | PChar _ => false
  | PArr l => forallb char_free l
  | PMap m => forallb (fun kv => char_free (snd kv)) m
  | _ => true
  end.

Lemma roundtrip_gen alt v :
  plain v = true -> (alt = true -> char_free v = true) ->
  to_object_gen alt (to_interface v) = Ok v.
Proof.
  induction v as [ | b | z | z | f | z | s | s | l IH | m IH | m IH | i n m | i e n m | i | t p ]
    using pvalue_ind'; intros Hp Hc; try reflexivity; try discriminate Hp.   (* a sync map is not plain *)
  - (* Char *) simpl. destruct alt; [|reflexivity]. specialize (Hc eq_refl). discriminate.
  - (* PArr *) cbn [to_interface]. rewrite to_object_gen_slice', mapM_map_id; [reflexivity|].
    cbn [plain char_free] in Hp, Hc. rewrite forallb_forall in Hp. rewrite Forall_forall in *.
    intros x Hx. apply (IH x Hx); [exact (Hp x Hx)|].
    intros Ha. exact (proj1 (forallb_forall _ _) (Hc Ha) x Hx).
  - (* PMap *) cbn [to_interface]. rewrite to_object_gen_map, mapM_map_id; [reflexivity|].
    cbn [plain char_free] in Hp, Hc. rewrite forallb_forall in Hp. rewrite Forall_forall in *.
    intros [k x] Hx. specialize (IH _ Hx). cbn [fst snd] in *. rewrite IH; [reflexivity | exact (Hp _ Hx) |].
    intros Ha. exact (proj1 (forallb_forall _ _) (Hc Ha) _ Hx).
Qed.

Theorem to_object_to_interface v : plain v = true -> to_object (to_interface v) = Ok v.
Proof. intros Hp. apply roundtrip_gen; [exact Hp | discriminate]. Qed.

Theorem alt_roundtrip v :
  plain v = true -> char_free v = true -> to_object_alt (to_interface v) = Ok v.
Proof. intros Hp Hc. apply roundtrip_gen; [exact Hp | intros _; exact Hc]. Qed.

Theorem alt_char_is_int z : to_object_alt (to_interface (PChar z)) = Ok (PInt z).
Proof. reflexivity. Qed.

Definition atomic (g : goval) : bool :=
  match g with GSliceAny _ _ | GMapAny _ _ => false | _ => true end.

Section GInd.
  Variable P : goval -> Prop.
  Hypothesis Hslice : forall b l, Forall P l -> P (GSliceAny b l).
  Hypothesis Hmap : forall b l, Forall (fun kv => P (snd kv)) l -> P (GMapAny b l).
  Hypothesis Hatom : forall g, atomic g = true -> P g.

  Fixpoint goval_ind' (g : goval) : P g :=
    match g with
    | GSliceAny b l =>
        Hslice b l ((fix go (l : list goval) : Forall P l :=
                       match l with
                       | [] => Forall_nil _
                       | x :: xs => Forall_cons _ (goval_ind' x) (go xs)
                       end) l)
    | GMapAny b l =>
        Hmap b l ((fix go (l : list (bstr * goval)) : Forall (fun kv => P (snd kv)) l :=
                     match l with
                     | [] => Forall_nil _
                     | kv :: xs => Forall_cons _ (goval_ind' (snd kv)) (go xs)
                     end) l)
    | g' => Hatom g' eq_refl
    end.
End GInd.

Lemma geq_slice b1 b2 l1 l2 : geq (GSliceAny b1 l1) (GSliceAny b2 l2) <-> Forall2 geq l1 l2.
Proof.
  cbn [geq]. revert l2. induction l1 as [|x xs IH]; intros [|y ys]; try (split; [contradiction | inversion 1]).
  - split; constructor.
  - rewrite IH. split; [intros [H1 H2]; constructor; assumption | inversion 1; subst; split; assumption].
Qed.

Definition geq_kv (a b : bstr * goval) : Prop := fst a = fst b /\ geq (snd a) (snd b).

Lemma geq_map b1 b2 l1 l2 : geq (GMapAny b1 l1) (GMapAny b2 l2) <-> Forall2 geq_kv l1 l2.
Proof.
  cbn [geq]. revert l2. induction l1 as [|[k1 x] xs IH]; intros [|[k2 y] ys]; try (split; [contradiction | inversion 1]).
  - split; constructor.
  - rewrite IH. unfold geq_kv at 2. cbn [fst snd].
    split; [intros (H1 & H2 & H3); constructor; [split|]; assumption | inversion 1 as [|? ? ? ? [H1 H2] H3]; subst; auto].
Qed.

Theorem to_interface_to_object g :
  canonical g = true ->
  exists v, to_object g = Ok v /\ plain v = true /\ geq (to_interface v) g.
Proof.
  unfold to_object.
  induction g as [b l IH | b l IH | g Hg] using goval_ind'.
  - intros Hc. cbn [canonical] in Hc. rewrite forallb_forall in Hc.
    destruct (mapM_exists (to_object_gen false) plain (fun v g => geq (to_interface v) g) l) as (r & H1 & H2 & H3).
    { rewrite Forall_forall in *. intros x Hx. exact (IH x Hx (Hc x Hx)). }
    exists (PArr r). rewrite to_object_gen_slice', H1. repeat split; [exact H2 | apply geq_slice, Forall2_map_l, H3].
  - intros Hc. cbn [canonical] in Hc. rewrite forallb_forall in Hc.
    destruct (mapM_exists (fun kv => do y <- to_object_gen false (snd kv); Ok (fst kv, y))
                (fun kv => plain (snd kv)) (fun kv' => geq_kv (fst kv', to_interface (snd kv'))) l) as (r & H1 & H2 & H3).
    { rewrite Forall_forall in *. intros [k x] Hx. destruct (IH _ Hx (Hc _ Hx)) as (v & E1 & E2 & E3).
      exists (k, v). cbn [fst snd] in *. rewrite E1. repeat split; assumption. }
    exists (PMap r). rewrite to_object_gen_map, H1.
    repeat split; [exact H2 | apply geq_map, Forall2_map_l, H3].
  - destruct g; try discriminate Hg; intros Hc; try discriminate Hc; eexists; repeat split; reflexivity.
Qed.

Lemma widths_gen alt g z v :
  go_int_val g = Some z -> to_object_gen alt g = Ok v -> p_int_val v = Some z.
Proof.
  destruct g; cbn [go_int_val]; intros H1 H2; try discriminate H1; injection H1 as <-;
    cbn in H2; destruct alt; first [discriminate H2 | injection H2 as <-; reflexivity].
Qed.

Theorem widths_alt g z v :
  go_int_val g = Some z -> to_object_alt g = Ok v -> p_int_val v = Some z.
Proof. apply widths_gen. Qed.

Theorem widths_std g z v :
  go_int_val g = Some z -> to_object g = Ok v -> p_int_val v = Some z.
Proof. apply widths_gen. Qed.

Lemma dy_eq_refl a : dy_eq a a.
Proof. destruct a. reflexivity. Qed.

Theorem widen32_exact f a b :
  sf_dyadic f = Some a -> sf_dyadic (widen32 f) = Some b -> dy_eq b a.
Proof.
  destruct f as [s| s | | s m e]; cbn [sf_dyadic widen32]; intros Ha Hb; try discriminate.
  - replace b with a by congruence. apply dy_eq_refl.
  - destruct (53 - Z.pos (digits2_pos m))%Z as [|p|p]; cbn [sf_dyadic] in Hb.
    1, 3: replace b with a by congruence; apply dy_eq_refl.
    (* the mantissa is shifted left by p and the exponent lowered by p *)
    injection Ha as <-. injection Hb as <-. cbv [dy_eq]. rewrite Z.min_l by lia.
    replace (e - Z.pos p - (e - Z.pos p))%Z with 0%Z by lia.
    replace (e - (e - Z.pos p))%Z with (Z.pos p) by lia.
    rewrite shift_pos_correct, Z.pow_pos_fold, Z.pow_0_r. destruct s; unfold cond_Zopp; lia.
Qed.

Theorem widen32_special f :
  sf_dyadic f = None -> widen32 f = f.
Proof. destruct f; simpl; intros H; try reflexivity; discriminate. Qed.

Theorem convert_no_panic alt g : is_panic (to_object_gen alt g) = false.
Proof.
  induction g as [b l IH | b l IH | g Hg] using goval_ind'.
  - rewrite to_object_gen_slice'. apply bind_no_panic; [apply mapM_no_panic, IH | reflexivity].
  - rewrite to_object_gen_map. apply bind_no_panic; [|reflexivity]. apply mapM_no_panic.
    revert IH. apply Forall_impl. intros kv H. apply bind_no_panic; [exact H | reflexivity].
  - destruct g; try discriminate Hg; cbn [to_object_gen default_case]; auto with no_panic.
Qed.

Theorem unsupported_is_error tag : exists e, to_object (GOther tag) = Err e /\ to_object_alt (GOther tag) = Err e.
Proof. eexists; split; reflexivity. Qed.

Theorem narrow_ints_unsupported_by_to_object z :
  (exists e, to_object (GInt8 z) = Err e) /\ (exists e, to_object (GInt16 z) = Err e) /\
  (exists e, to_object (GUint16 z) = Err e) /\ (exists e, to_object (GUint32 z) = Err e).
Proof. repeat split; eexists; reflexivity. Qed.

(* The machine of ExprComp.v, one instruction at a time, and correctness of the expression
   compiler against the source-level evaluation (C02). *)
From Coq Require Import List ZArith Lia.
From Ugo Require Import Base.Res Value.PValue Value.Ops ExprComp.ExprComp.
Import ListNotations.
Local Open Scope Z_scope.

Lemma isize_pos i : 1 <= xisize i.
Proof. destruct i; simpl; lia. Qed.

Lemma csize_nonneg l : 0 <= xcsize l.
Proof. induction l as [|i r IH]; simpl; [lia|]. pose proof (isize_pos i). lia. Qed.

Lemma csize_app a b : xcsize (a ++ b) = xcsize a + xcsize b.
Proof. induction a as [|i r IH]; simpl; [lia|]. rewrite IH. lia. Qed.

Lemma csize_cons i l : xcsize (i :: l) = xisize i + xcsize l.
Proof. reflexivity. Qed.

Global Hint Rewrite csize_app csize_cons : csize.

Lemma csize_app_eq a a' b b' : xcsize a = xcsize a' -> xcsize b = xcsize b' -> xcsize (a ++ b) = xcsize (a' ++ b').
Proof. intros Ha Hb. rewrite !csize_app, Ha, Hb. reflexivity. Qed.

Lemma csize_cons_eq i i' l l' : xisize i = xisize i' -> xcsize l = xcsize l' -> xcsize (i :: l) = xcsize (i' :: l').
Proof. intros Hi Hl. cbn [xcsize]. rewrite Hi, Hl. reflexivity. Qed.

(* size is a congruence for ++ and ::, and the position enters only through the operands of jumps
   and the positions of the parts *)
Lemma xcompile_size e : forall p q, xcsize (xcompile p e) = xcsize (xcompile q e).
Proof. induction e; intros p q; cbn [xcompile]; auto 8 using csize_app_eq, csize_cons_eq. Qed.

Lemma fetch_skip pre rest k : 0 <= k -> xfetch (pre ++ rest) (xcsize pre + k) = xfetch rest k.
Proof.
  induction pre as [|i r IH]; intros Hk; [simpl; f_equal; lia|].
  cbn [app xcsize xfetch]. pose proof (isize_pos i). pose proof (csize_nonneg r).
  destruct (Z.eqb_spec (xisize i + xcsize r + k) 0); [lia|].
  destruct (Z.ltb_spec (xisize i + xcsize r + k) (xisize i)); [lia|].
  replace (xisize i + xcsize r + k - xisize i) with (xcsize r + k) by lia. apply IH. exact Hk.
Qed.

Lemma fetch_at pre i post : xfetch (pre ++ i :: post) (xcsize pre) = Some i.
Proof. replace (xcsize pre) with (xcsize pre + 0) by lia. rewrite fetch_skip by lia. reflexivity. Qed.

(* the fragment c stands in code from byte position p on *)
Definition code_at (code : list xinstr) (p : Z) (c : list xinstr) : Prop :=
  exists pre post, code = pre ++ c ++ post /\ xcsize pre = p.

Lemma code_at_here pre c post : code_at (pre ++ c ++ post) (xcsize pre) c.
Proof. exists pre, post. split; reflexivity. Qed.

Lemma code_at_whole c : code_at c 0 c.
Proof. exists [], []. rewrite app_nil_r. split; reflexivity. Qed.

Lemma code_at_app code p a b : code_at code p (a ++ b) -> code_at code p a /\ code_at code (p + xcsize a) b.
Proof.
  intros (pre & post & -> & <-). split.
  - exists pre, (b ++ post). rewrite <- app_assoc. split; reflexivity.
  - exists (pre ++ a), post. rewrite csize_app, <- !app_assoc. split; reflexivity.
Qed.

Lemma code_at_cons code p i c : code_at code p (i :: c) -> xfetch code p = Some i /\ code_at code (p + xisize i) c.
Proof.
  intros H. destruct (code_at_app code p [i] c H) as [(pre & post & -> & <-) Hc]. split.
  - apply fetch_at.
  - cbn [xcsize] in Hc. rewrite Z.add_0_r in Hc. exact Hc.
Qed.

Section Correct.
Variable consts : list pvalue.

Inductive mstar (code : list xinstr) : mstate -> mstate -> Prop :=
| MRefl s : mstar code s s
| MStep pc locals st s' : mstar code (xmstep consts code pc locals st) s' -> mstar code (XRunning pc locals st) s'.

Lemma mstar_trans code s1 s2 s3 : mstar code s1 s2 -> mstar code s2 s3 -> mstar code s1 s3.
Proof. induction 1 as [|pc locals st s' H IH]; intros H2; [exact H2|]. apply MStep. apply IH. exact H2. Qed.

Lemma mstar_one code pc locals st s : xmstep consts code pc locals st = s -> mstar code (XRunning pc locals st) s.
Proof. intros <-. apply MStep. apply MRefl. Qed.

Lemma mstar_at code p q locals st : p = q -> mstar code (XRunning p locals st) (XRunning q locals st).
Proof. intros ->. apply MRefl. Qed.

(* The machine follows a source-level computation r: from s it reaches k a if r yields a, and
   throws e if r raises e.  Nothing is claimed where the model of the source level panics or
   runs out of fuel. *)
Definition lands {A} (code : list xinstr) (s : mstate) (r : res A) (k : A -> mstate) : Prop :=
  match r with
  | Ok a => mstar code s (k a)
  | Err e => mstar code s (XThrown e)
  | _ => True
  end.

Lemma lands_after {A} code s s' (r : res A) k : mstar code s s' -> lands code s' r k -> lands code s r k.
Proof. intro H. destruct r; cbn [lands]; trivial; apply mstar_trans; exact H. Qed.

Lemma lands_bind {A B} code s (r : res A) k (f : A -> res B) k' :
  lands code s r k -> (forall a, r = Ok a -> lands code (k a) (f a) k') -> lands code s (bind r f) k'.
Proof.
  destruct r as [a|e| |]; cbn [lands bind]; trivial.
  intros H H'. eapply lands_after; [exact H|]. apply H'. reflexivity.
Qed.

Lemma lands_then {A} code s (r : res A) k k' :
  lands code s r k -> (forall a, mstar code (k a) (k' a)) -> lands code s r k'.
Proof. destruct r as [a|e| |]; cbn [lands]; trivial. intros H H'. eapply mstar_trans; [exact H|]. apply H'. Qed.

(* what one instruction does, given that it is the one at the program counter; q is the program
   counter after it *)
Lemma exec_const {code p q locals st c v} : xfetch code p = Some (XIConst c) -> nth_error consts c = Some v -> q = p + 3 ->
  mstar code (XRunning p locals st) (XRunning q locals (v :: st)).
Proof. intros H E ->. apply mstar_one. unfold xmstep. rewrite H, E. reflexivity. Qed.

Lemma exec_getlocal {code p q locals st i v} : xfetch code p = Some (XIGetLocal i) -> nth_error locals i = Some v -> q = p + 2 ->
  mstar code (XRunning p locals st) (XRunning q locals (v :: st)).
Proof. intros H E ->. apply mstar_one. unfold xmstep. rewrite H, E. reflexivity. Qed.

Lemma exec_binop {code p q locals st t l r} : xfetch code p = Some (XIBinOp t) -> q = p + 2 ->
  lands code (XRunning p locals (r :: l :: st)) (binop t l r) (fun v => XRunning q locals (v :: st)).
Proof. intros H ->. destruct (binop t l r) eqn:E; cbn [lands]; trivial; apply mstar_one; unfold xmstep; rewrite H, E; reflexivity. Qed.

Lemma exec_equal {code p q locals st l r} : xfetch code p = Some XIEqual -> q = p + 1 ->
  mstar code (XRunning p locals (r :: l :: st)) (XRunning q locals (vm_equal l r :: st)).
Proof. intros H ->. apply mstar_one. unfold xmstep. rewrite H. reflexivity. Qed.

Lemma exec_notequal {code p q locals st l r} : xfetch code p = Some XINotEqual -> q = p + 1 ->
  mstar code (XRunning p locals (r :: l :: st)) (XRunning q locals (vm_not_equal l r :: st)).
Proof. intros H ->. apply mstar_one. unfold xmstep. rewrite H. reflexivity. Qed.

Lemma exec_unary {code p q locals st t v} : xfetch code p = Some (XIUnary t) -> q = p + 2 ->
  lands code (XRunning p locals (v :: st)) (unop t v) (fun w => XRunning q locals (w :: st)).
Proof. intros H ->. destruct (unop t v) eqn:E; cbn [lands]; trivial; apply mstar_one; unfold xmstep; rewrite H, E; reflexivity. Qed.

Lemma exec_andjump {code p locals st t v} : xfetch code p = Some (XIAndJump t) ->
  lands code (XRunning p locals (v :: st)) (xtruthy v)
        (fun b => if b then XRunning (p + 5) locals st else XRunning t locals (v :: st)).
Proof. intros H. unfold xtruthy. destruct (is_falsy v) as [[|]|] eqn:E; apply mstar_one; unfold xmstep; rewrite H, E; reflexivity. Qed.

Lemma exec_orjump {code p locals st t v} : xfetch code p = Some (XIOrJump t) ->
  lands code (XRunning p locals (v :: st)) (xtruthy v)
        (fun b => if b then XRunning t locals (v :: st) else XRunning (p + 5) locals st).
Proof. intros H. unfold xtruthy. destruct (is_falsy v) as [[|]|] eqn:E; apply mstar_one; unfold xmstep; rewrite H, E; reflexivity. Qed.

Lemma exec_jumpfalsy {code p locals st t v} : xfetch code p = Some (XIJumpFalsy t) ->
  lands code (XRunning p locals (v :: st)) (xtruthy v)
        (fun b => if b then XRunning (p + 5) locals st else XRunning t locals st).
Proof. intros H. unfold xtruthy. destruct (is_falsy v) as [[|]|] eqn:E; apply mstar_one; unfold xmstep; rewrite H, E; reflexivity. Qed.

Lemma exec_jump {code p q locals st t} : xfetch code p = Some (XIJump t) -> q = t ->
  mstar code (XRunning p locals st) (XRunning q locals st).
Proof. intros H ->. apply mstar_one. unfold xmstep. rewrite H. reflexivity. Qed.

(* XISetLocal and XIDefineLocal are one clause of xmstep *)
Lemma exec_setlocal {code p q locals st ins k v l'} : xfetch code p = Some ins ->
  ins = XISetLocal k \/ ins = XIDefineLocal k -> set_local locals k v = Some l' -> q = p + 2 ->
  mstar code (XRunning p locals (v :: st)) (XRunning q l' st).
Proof. intros H [-> | ->] E ->; apply mstar_one; unfold xmstep; rewrite H, E; reflexivity. Qed.

Lemma exec_pop {code p q locals st v} : xfetch code p = Some XIPop -> q = p + 1 -> mstar code (XRunning p locals (v :: st)) (XRunning q locals st).
Proof. intros H ->. apply mstar_one. unfold xmstep. rewrite H. reflexivity. Qed.

Lemma exec_return {code p locals st v} : xfetch code p = Some XIReturn -> mstar code (XRunning p locals (v :: st)) (XReturned v).
Proof. intros H. apply mstar_one. unfold xmstep. rewrite H. reflexivity. Qed.

(* the conclusion of compile_correct, written out; it is lands at xceval, by computation *)
Definition runs (locals : list pvalue) (code : list xinstr) (p : Z) (e : cexpr) (st : list pvalue) : Prop :=
  match xceval consts locals e with
  | Ok v => mstar code (XRunning p locals st) (XRunning (p + xcsize (xcompile p e)) locals (v :: st))
  | Err err => mstar code (XRunning p locals st) (XThrown err)
  | _ => True                 (* a constant or local index out of range: excluded by the validator of C05 *)
  end.

Theorem xcompile_runs locals e : forall code p q st,
  code_at code p (xcompile p e) -> q = p + xcsize (xcompile p e) ->
  lands code (XRunning p locals st) (xceval consts locals e) (fun v => XRunning q locals (v :: st)).
Proof.
  induction e as [c|i|t a IHa b IHb|a IHa b IHb|a IHa b IHb|t a IHa|a IHa b IHb|a IHa b IHb|c IHc a IHa b IHb];
    intros code p q st Hc Hq; cbn [xcompile xceval] in *; autorewrite with csize in Hq; cbn [xcsize xisize] in Hq.
  (* the three binary forms: a, then b, then one instruction on the two values *)
  3-5: apply code_at_app in Hc as [Ha Hc]; apply code_at_app in Hc as [Hb Hc]; apply code_at_cons in Hc as [Hf _].
  3-5: eapply lands_bind; [eapply IHa; [exact Ha | reflexivity]|intros va _].
  3-5: eapply lands_bind; [eapply IHb; [exact Hb | reflexivity]|intros vb _].
  - (* constant *) apply code_at_cons in Hc as [Hf _]. destruct (nth_error consts c) as [v|] eqn:E; [|exact I].
    apply (exec_const Hf E). lia.
  - (* local *) apply code_at_cons in Hc as [Hf _]. destruct (nth_error locals i) as [v|] eqn:E; [|exact I].
    apply (exec_getlocal Hf E). lia.
  - (* a op b *) apply exec_binop; [exact Hf | lia].
  - (* a == b *) apply exec_equal; [exact Hf | lia].
  - (* a != b *) apply exec_notequal; [exact Hf | lia].
  - (* op a *) apply code_at_app in Hc as [Ha Hc]. apply code_at_cons in Hc as [Hf _].
    eapply lands_bind; [eapply IHa; [exact Ha | reflexivity]|intros va _].
    apply exec_unary; [exact Hf | lia].
  - (* a && b: a falsy a is the result; the jump to the end leaves it on the stack *)
    apply code_at_app in Hc as [Ha Hc]. apply code_at_cons in Hc as [Hf Hb]. cbn [xisize] in Hb.
    eapply lands_bind; [eapply IHa; [exact Ha | reflexivity]|intros va _].
    eapply lands_bind; [exact (exec_andjump Hf)|intros [|] _].
    + apply IHb; [exact Hb | lia].
    + apply mstar_at. lia.
  - (* a || b *) apply code_at_app in Hc as [Ha Hc]. apply code_at_cons in Hc as [Hf Hb]. cbn [xisize] in Hb.
    eapply lands_bind; [eapply IHa; [exact Ha | reflexivity]|intros va _].
    eapply lands_bind; [exact (exec_orjump Hf)|intros [|] _].
    + apply mstar_at. lia.
    + apply IHb; [exact Hb | lia].
  - (* c ? a : b *)
    apply code_at_app in Hc as [Hcc Hc]. apply code_at_cons in Hc as [Hf Hc].
    apply code_at_app in Hc as [Ha Hc]. apply code_at_cons in Hc as [Hj Hb]. cbn [xisize] in *.
    eapply lands_bind; [eapply IHc; [exact Hcc | reflexivity]|intros vc _].
    eapply lands_bind; [exact (exec_jumpfalsy Hf)|intros [|] _].
    + eapply lands_then; [eapply IHa; [exact Ha | reflexivity]|intros va].
      apply (exec_jump Hj). lia.
    + apply IHb; [exact Hb | lia].
Qed.

Theorem compile_correct : forall locals e pre post st,
  runs locals (pre ++ xcompile (xcsize pre) e ++ post) (xcsize pre) e st.
Proof. intros. apply xcompile_runs; [apply code_at_here | reflexivity]. Qed.

End Correct.

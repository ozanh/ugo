(* The executable runner xmrun reaches every terminal state but XCrashed that the step relation reaches (C02): the
   theorems about mstar speak about the function which the correspondence check executes. *)
From Coq Require Import List ZArith Lia.
From Ugo Require Import Base.Res ExprComp.ExprComp ExprComp.ExprCompProofs ExprComp.StmtComp ExprComp.StmtCompProofs.
Import ListNotations.
Local Open Scope Z_scope.

Lemma xfetch_end code pc : xcsize code <= pc -> xfetch code pc = None.
Proof.
  intro H. replace pc with (xcsize code + (pc - xcsize code)) by lia.
  rewrite <- (app_nil_r code) at 1. rewrite fetch_skip by lia. reflexivity.
Qed.

Definition terminal (s : mstate) : Prop := match s with XRunning _ _ _ => False | _ => True end.

Theorem mstar_xmrun consts code s s' : mstar consts code s s' -> terminal s' -> s' <> XCrashed ->
  exists fuel, xmrun fuel consts code (xcsize code) s = s'.
Proof.
  induction 1 as [s|pc locals st s' H IH]; intros Ht Hc.
  - exists 1%nat. destruct s; try contradiction; reflexivity.
  - destruct (Z.eqb_spec pc (xcsize code)) as [E|E].
    + (* at the end of the code the next step crashes: the run could not have reached s' *)
      exfalso. unfold xmstep in H. rewrite xfetch_end in H by lia.
      inversion H; subst. apply Hc. reflexivity.
    + destruct (IH Ht Hc) as [fuel Hf]. exists (S fuel). cbn [xmrun].
      destruct (Z.eqb_spec pc (xcsize code)); [contradiction | exact Hf].
Qed.

Theorem function_body_runs consts fuel s locals : wf s = true ->
  match sexec fuel consts locals s with
  | Ok (QReturn v, _) => exists n, xmrun n consts (scompile 0 0 0 s) (ssize s) (XRunning 0 locals []) = XReturned v
  | Err e => exists n, xmrun n consts (scompile 0 0 0 s) (ssize s) (XRunning 0 locals []) = XThrown e
  | _ => True
  end.
Proof.
  intro Hwf. pose proof (function_body_correct consts fuel s locals Hwf) as H.
  rewrite <- (scompile_size s 0 0 0).
  destruct (sexec fuel consts locals s) as [[[] l']|e| |]; try exact I; (eapply mstar_xmrun; [exact H | exact I | discriminate]).
Qed.

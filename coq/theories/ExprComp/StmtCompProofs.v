(* Correctness of the statement compiler (C02): whenever the source-level execution of a statement
   terminates, the machine running the compiled code from the same locals reaches the matching
   configuration: the position after the code (normal end), the target of break / continue, the
   returned value, or the thrown error - with the same locals. *)
From Coq Require Import List ZArith Bool Lia.
From Ugo Require Import Base.Res Value.PValue ExprComp.ExprComp ExprComp.ExprCompProofs ExprComp.StmtComp.
Import ListNotations.
Local Open Scope Z_scope.

Lemma esize_eq p e : xcsize (xcompile p e) = esize e.
Proof. apply xcompile_size. Qed.

Lemma scompile_size s : forall p brk cont, xcsize (scompile p brk cont s) = ssize s.
Proof.
  induction s as [|a IHa b IHb|i e|i e|e|c a IHa|c a IHa b IHb|c body IHb post IHp| | |e]; intros p brk cont; cbn [scompile ssize];
    autorewrite with csize; cbn [xcsize xisize]; rewrite ?esize_eq, ?IHa, ?IHb, ?IHp; lia.
Qed.

Lemma noctl_wf s : noctl s = true -> wf s = true.
Proof. induction s; cbn [noctl wf]; intro H; try reflexivity; try discriminate. apply andb_true_iff in H as [H1 H2]. rewrite IHs1, IHs2; auto. Qed.

Lemma noctl_normal consts s : noctl s = true -> forall fuel locals o l', sexec fuel consts locals s = Ok (o, l') -> o = QNormal.
Proof.
  induction s as [|a IHa b IHb|i e|i e|e|c a IHa|c a IHa b IHb|c body IHb post IHp| | |e]; cbn [noctl]; intro H; try discriminate;
    intros [|fuel] locals o l' E; cbn [sexec] in E; try discriminate.
  - congruence.
  - apply andb_true_iff in H as [H1 H2]. apply bind_ok in E as ([oa la] & Ea & E). cbn [fst snd] in E.
    apply (IHa H1) in Ea as ->. eapply (IHb H2). exact E.
  - apply bind_ok in E as (v & _ & E). destruct (set_local locals i v); congruence.
  - apply bind_ok in E as (v & _ & E). destruct (set_local locals i v); congruence.
  - apply bind_ok in E as (v & _ & E). congruence.
Qed.

Section Correct.
Variable consts : list pvalue.
Notation star := (mstar consts).

Lemma expr_run {locals e code p st} : code_at code p (xcompile p e) ->
  lands consts code (XRunning p locals st) (xceval consts locals e) (fun v => XRunning (p + esize e) locals (v :: st)).
Proof. intro H. apply xcompile_runs; [exact H | rewrite esize_eq; reflexivity]. Qed.

(* the state after a statement that ended with o; q is the position after its code, a variable
   because the proof meets that position as sums of several forms (lia identifies them) *)
Definition finish (q brk cont : Z) (o : sout) (l st : list pvalue) : mstate :=
  match o with
  | QNormal => XRunning q l st
  | QBreak => XRunning brk l st
  | QContinue => XRunning cont l st
  | QReturn v => XReturned v
  end.

(* e followed by one instruction i: the machine comes to i with the value of e on the stack *)
Lemma expr_then {A} {locals e i code p st} {f : pvalue -> res A} {k} : code_at code p (xcompile p e ++ [i]) ->
  (forall v, xfetch code (p + esize e) = Some i -> lands consts code (XRunning (p + esize e) locals (v :: st)) (f v) k) ->
  lands consts code (XRunning p locals st) (do v <- xceval consts locals e; f v) k.
Proof.
  intros Hc Hk. apply code_at_app in Hc as [He Hc]. apply code_at_cons in Hc as [Hf _]. rewrite esize_eq in Hf.
  eapply lands_bind; [exact (expr_run He) | intros v _; exact (Hk v Hf)].
Qed.

(* a condition followed by JumpFalsy, as compileIfStmt and compileForStmt emit it *)
Lemma cond_run {A} {locals c t rest code p st} {f : bool -> res A} {k} :
  code_at code p (xcompile p c ++ XIJumpFalsy t :: rest) ->
  (code_at code (p + esize c + 5) rest ->
   forall b : bool, lands consts code (XRunning (if b then p + esize c + 5 else t) locals st) (f b) k) ->
  lands consts code (XRunning p locals st) (do vc <- xceval consts locals c; do b <- xtruthy vc; f b) k.
Proof.
  intros Hc Hk. apply code_at_app in Hc as [Hcc Hc]. apply code_at_cons in Hc as [Hf Hr]. rewrite esize_eq in Hf, Hr.
  eapply lands_bind; [exact (expr_run Hcc)|intros vc _].
  eapply lands_bind; [exact (exec_jumpfalsy consts Hf)|intros b _]. specialize (Hk Hr b). destruct b; exact Hk.
Qed.

Theorem scompile_runs : forall fuel s {code p q} brk cont locals st,
  wf s = true -> code_at code p (scompile p brk cont s) -> q = p + ssize s ->
  lands consts code (XRunning p locals st) (sexec fuel consts locals s) (fun r => finish q brk cont (fst r) (snd r) st).
Proof.
  induction fuel as [|fuel IH]; intros s code p q brk cont locals st Hwf Hc Hq; [exact I|].
  destruct s as [|a b|i e|i e|e|c a|c a b|c body pst| | |e]; cbn [sexec scompile ssize wf] in *.
  - (* TSkip *) apply mstar_at. lia.
  - (* TSeq *)
    apply andb_true_iff in Hwf as [Wa Wb]. apply code_at_app in Hc as [Ha Hb]. rewrite scompile_size in Hb.
    eapply lands_bind; [eapply IH; [exact Wa | exact Ha | reflexivity]|intros [o l] _].
    destruct o; cbn [fst snd finish]; [|apply MRefl..]. apply IH; [exact Wb | exact Hb | lia].
  - (* x = e *)
    apply (expr_then Hc). intros v Hf. destruct (set_local locals i v) as [l'|] eqn:Es; [|exact I].
    eapply exec_setlocal; [exact Hf | left; reflexivity | exact Es | lia].
  - (* x := e *)
    apply (expr_then Hc). intros v Hf. destruct (set_local locals i v) as [l'|] eqn:Es; [|exact I].
    eapply exec_setlocal; [exact Hf | right; reflexivity | exact Es | lia].
  - (* e as a statement *)
    apply (expr_then Hc). intros v Hf. apply (exec_pop consts); [exact Hf | lia].
  - (* if without else *)
    apply (cond_run Hc). intros Ha [|].
    + apply IH; [exact Hwf | exact Ha | lia].
    + apply mstar_at. lia.
  - (* if with else: after the then branch, a jump over the else branch *)
    apply andb_true_iff in Hwf as [Wa Wb]. apply (cond_run Hc). intros Hc' t.
    apply code_at_app in Hc' as [Ha Hc']. apply code_at_cons in Hc' as [Hj Hb]. rewrite scompile_size in *. cbn [xisize] in *.
    destruct t.
    + eapply lands_then; [eapply IH; [exact Wa | exact Ha | reflexivity]|intros [o l]].
      destruct o; cbn [fst snd finish]; [|apply MRefl..]. apply (exec_jump consts Hj). lia.
    + apply IH; [exact Wb | exact Hb | lia].
  - (* for loop *)
    pose proof Hwf as Wfor. pose proof Hc as Hloop.
    apply andb_true_iff in Hwf as [Hwf Wp]. apply andb_true_iff in Hwf as [Wb Wn].
    apply (cond_run Hc). intros Hc' [|]; cbn [negb]; [|apply mstar_at; lia].
    apply code_at_app in Hc' as [Hbody Hc']. apply code_at_app in Hc' as [Hpost Hc']. apply code_at_cons in Hc' as [Hj _].
    rewrite ?scompile_size in *.
    eapply lands_bind; [eapply IH; [exact Wb | exact Hbody | reflexivity]|intros [o lb] _].
    (* after the body (normal end or continue): post statement, jump back, the rest of the loop *)
    assert (Hrest: lands consts code (XRunning (p + esize c + 5 + ssize body) lb st)
                     (do r2 <- sexec fuel consts lb pst;
                      match fst r2 with
                      | QNormal => sexec fuel consts (snd r2) (TFor c body pst)
                      | o => Ok (o, snd r2)
                      end)
                     (fun r => finish q brk cont (fst r) (snd r) st)).
    { eapply lands_bind; [eapply IH; [exact Wp | exact Hpost | reflexivity]|intros [op lp] Ep].
      apply (noctl_normal consts pst Wn) in Ep as ->. cbn [fst snd finish].
      eapply lands_after; [exact (exec_jump consts Hj eq_refl)|]. apply IH; [exact Wfor | exact Hloop | exact Hq]. }
    (* normal end, break (ends the loop where the machine stands), continue, return *)
    destruct o; cbn [fst snd finish]; [exact Hrest | apply mstar_at; lia | exact Hrest | apply MRefl].
  - (* break *) apply code_at_cons in Hc as [Hf _]. exact (exec_jump consts Hf eq_refl).
  - (* continue *) apply code_at_cons in Hc as [Hf _]. exact (exec_jump consts Hf eq_refl).
  - (* return e *) apply (expr_then Hc). intros v Hf. exact (exec_return consts Hf).
Qed.

(* final and sruns: the conclusion of scompile_correct, written out (finish and lands, see final_finish) *)
Definition final (p brk cont : Z) (s : cstmt) (o : sout) (l st : list pvalue) : mstate :=
  match o with
  | QNormal => XRunning (p + ssize s) l st
  | QBreak => XRunning brk l st
  | QContinue => XRunning cont l st
  | QReturn v => XReturned v
  end.

Definition sruns (fuel : nat) (code : list xinstr) (p brk cont : Z) (s : cstmt) (locals st : list pvalue) : Prop :=
  wf s = true ->
  match sexec fuel consts locals s with
  | Ok (o, l') => star code (XRunning p locals st) (final p brk cont s o l' st)
  | Err e => star code (XRunning p locals st) (XThrown e)
  | _ => True
  end.

Lemma one code pre i post pc locals st s :
  code = pre ++ i :: post -> pc = xcsize pre ->
  (xmstep consts code pc locals st = s) -> star code (XRunning pc locals st) s.
Proof. intros _ _ H. apply mstar_one. exact H. Qed.

Lemma final_finish p brk cont s : final p brk cont s = finish (p + ssize s) brk cont.
Proof. reflexivity. Qed.

Theorem scompile_correct : forall fuel s locals pre post brk cont st,
  sruns fuel (pre ++ scompile (xcsize pre) brk cont s ++ post) (xcsize pre) brk cont s locals st.
Proof.
  intros fuel s locals pre post brk cont st Hwf.
  pose proof (scompile_runs fuel s brk cont locals st Hwf (code_at_here pre _ post) eq_refl) as H.
  unfold lands in H. rewrite final_finish. destruct (sexec fuel consts locals s) as [[o l']|e| |]; exact H.
Qed.
End Correct.

(* a whole function body: code at position 0, empty stack *)
Theorem function_body_correct consts fuel s locals : wf s = true ->
  match sexec fuel consts locals s with
  | Ok (QReturn v, _) => mstar consts (scompile 0 0 0 s) (XRunning 0 locals []) (XReturned v)
  | Ok (QNormal, l') => mstar consts (scompile 0 0 0 s) (XRunning 0 locals []) (XRunning (ssize s) l' [])
  | Ok (_, _) => True          (* break / continue outside a loop: rejected by the real compiler *)
  | Err e => mstar consts (scompile 0 0 0 s) (XRunning 0 locals []) (XThrown e)
  | _ => True
  end.
Proof.
  intro Hwf. pose proof (scompile_runs consts fuel s 0 0 locals [] Hwf (code_at_whole _) eq_refl) as H.
  unfold lands in H. destruct (sexec fuel consts locals s) as [[[] l']|e| |]; try exact I; exact H.
Qed.

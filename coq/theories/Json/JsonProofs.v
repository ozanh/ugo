(* The string escaping of Marshal always produces a well-formed JSON string token (C17). *)
From Coq Require Import List ZArith Bool Lia.
From Ugo Require Import Json.Json.
Import ListNotations.
Local Open Scope Z_scope.

Lemma body_plain b rest : 32 <= b -> b <> 34 -> b <> 92 -> string_body (b :: rest) = string_body rest.
Proof.
  intros H1 H2 H3. cbn [string_body].
  destruct (Z.eqb_spec b 34); [contradiction|]. destruct (Z.ltb_spec b 32); [lia|].
  destruct (Z.eqb_spec b 92); [contradiction|]. reflexivity.
Qed.

Lemma body_safe b rest : safe b = true -> string_body (b :: rest) = string_body rest.
Proof.
  unfold safe. intros H. apply body_plain; lia.
Qed.

Lemma body_raw ch rest : Forall (fun b => 128 <= b) ch -> string_body (ch ++ rest) = string_body rest.
Proof.
  induction 1 as [|b r Hb Hr IH]; [reflexivity|]. cbn [app]. rewrite body_plain by lia. exact IH.
Qed.

Lemma is_hex_hexdigit n : 0 <= n < 16 -> is_hex (hexdigit n) = true.
Proof.
  intros H. unfold hexdigit, is_hex. destruct (Z.ltb_spec n 10); lia.
Qed.

Lemma body_simple_escape e rest :
  (e = 34 \/ e = 92 \/ e = 98 \/ e = 102 \/ e = 110 \/ e = 114 \/ e = 116) ->
  string_body (92 :: e :: rest) = string_body rest.
Proof. intros [->|[->|[->|[->|[->|[->| ->]]]]]]; reflexivity. Qed.

Lemma body_u_escape h1 h2 h3 h4 rest :
  is_hex h1 = true -> is_hex h2 = true -> is_hex h3 = true -> is_hex h4 = true ->
  string_body (92 :: 117 :: h1 :: h2 :: h3 :: h4 :: rest) = string_body rest.
Proof.
  intros A B C D.
  change (string_body (92 :: 117 :: h1 :: h2 :: h3 :: h4 :: rest))
    with (if is_hex h1 && is_hex h2 && is_hex h3 && is_hex h4 then string_body rest else None).
  rewrite A, B, C, D. reflexivity.
Qed.

Lemma body_escape_ascii b rest : 0 <= b < 128 -> string_body (escape_ascii b ++ rest) = string_body rest.
Proof.
  intros Hb. unfold escape_ascii.
  destruct ((b =? 92) || (b =? 34)) eqn:E; [apply body_simple_escape; lia|].
  destruct (b =? 8); [apply body_simple_escape; lia|].
  destruct (b =? 12); [apply body_simple_escape; lia|].
  destruct (b =? 10); [apply body_simple_escape; lia|].
  destruct (b =? 13); [apply body_simple_escape; lia|].
  destruct (b =? 9); [apply body_simple_escape; lia|].
  apply body_u_escape; try reflexivity; apply is_hex_hexdigit.
  - split; [apply Z.div_pos | apply Z.div_lt_upper_bound]; lia.
  - apply Z.mod_pos_bound. lia.
Qed.

(* at least one byte is consumed: the step of a proof, stated nowhere, that length s is fuel enough in encode_string *)
Lemma decode_rune_size b0 r : (1 <= snd (decode_rune (b0 :: r)))%nat.
Proof.
  unfold decode_rune. cbv zeta. destruct (b0 <? 128); [cbn; lia|].
  destruct (inr 194 223 b0); [destruct r as [|b1 r]; [|destruct (cont b1)]; cbn; lia|].
  destruct (inr 224 239 b0); [destruct r as [|b1 [|b2 r]]; try (cbn; lia); destruct (_ && _); cbn; lia|].
  destruct (inr 240 244 b0); [|cbn; lia].
  destruct r as [|b1 [|b2 [|b3 r]]]; try (cbn; lia). destruct (_ && _ && _); cbn; lia.
Qed.

(* an error spans the lead byte alone, and every byte of a longer answer has passed a range test *)
Lemma decode_rune_raw b0 r :
  128 <= b0 -> Forall (fun b => 128 <= b) (firstn (snd (decode_rune (b0 :: r))) (b0 :: r)).
Proof.
  intros H0. unfold decode_rune. cbv zeta. destruct (Z.ltb_spec b0 128); [lia|].
  assert (Herr: Forall (fun b => 128 <= b) (firstn (snd (rune_error, 1%nat)) (b0 :: r)))
    by (repeat constructor; exact H0).
  destruct (inr 194 223 b0).
  { destruct r as [|b1 r]; [exact Herr|]. destruct (cont b1) eqn:C; [|exact Herr].
    unfold cont in C. repeat constructor; lia. }
  destruct (inr 224 239 b0).
  { destruct r as [|b1 [|b2 r]]; try exact Herr.
    destruct (inr _ _ b1 && cont b2) eqn:C; [|exact Herr].
    unfold inr, cont in C. repeat constructor; try lia. destruct (b0 =? 224); lia. }
  destruct (inr 240 244 b0); [|exact Herr].
  destruct r as [|b1 [|b2 [|b3 r]]]; try exact Herr.
  destruct (inr _ _ b1 && cont b2 && cont b3) eqn:C; [|exact Herr].
  unfold inr, cont in C. repeat constructor; try lia. destruct (b0 =? 240); lia.
Qed.

Theorem body_encode_body fuel : forall s html rest,
  Forall (fun b => 0 <= b) s ->
  string_body (encode_body fuel s html ++ rest) = string_body rest.
Proof.
  induction fuel as [|f IH]; intros s html rest Hs; [reflexivity|].
  destruct s as [|b r]; [reflexivity|].
  inversion Hs as [|? ? Hb Hr]; subst. cbn [encode_body].
  destruct (Z.ltb_spec b 128) as [Hlt|Hge].
  - rewrite <- app_assoc.
    destruct (html_safe b || negb html && safe b) eqn:Esafe.
    + cbn [app]. rewrite body_safe; [apply IH; exact Hr|].
      unfold html_safe in Esafe. destruct (safe b); [reflexivity|]. destruct html; discriminate Esafe.
    + rewrite body_escape_ascii by lia. apply IH. exact Hr.
  - pose proof (decode_rune_raw b r Hge) as Hraw.
    destruct (decode_rune (b :: r)) as [c size]. cbn [snd] in Hraw.
    assert (Hskip: Forall (fun b => 0 <= b) (skipn size (b :: r))).
    { rewrite <- (firstn_skipn size (b :: r)) in Hs. apply Forall_app in Hs. apply Hs. }
    destruct ((c =? rune_error) && Nat.eqb size 1).
    + cbn [app]. rewrite body_u_escape by reflexivity. apply IH. exact Hr.
    + destruct ((c =? 8232) || (c =? 8233)).
      * cbn [app]. rewrite body_u_escape; try reflexivity; [apply IH; exact Hskip|].
        apply is_hex_hexdigit. apply Z.mod_pos_bound. lia.
      * rewrite <- app_assoc, body_raw by exact Hraw. apply IH. exact Hskip.
Qed.

Theorem encode_string_valid s html rest :
  Forall (fun b => 0 <= b < 256) s ->
  exists body, encode_string s html = 34 :: body /\ string_body (body ++ rest) = Some rest.
Proof.
  intros Hs. unfold encode_string. eexists. split; [reflexivity|].
  rewrite <- app_assoc, body_encode_body; [reflexivity|].
  apply (Forall_impl _ (fun b (H : 0 <= b < 256) => proj1 H) Hs).
Qed.

Theorem marshal_string_json_valid s html :
  Forall (fun b => 0 <= b < 256) s -> json_valid (encode_string s html) = true.
Proof.
  intros Hs. destruct (encode_string_valid s html [] Hs) as [body [E Hb]].
  rewrite app_nil_r in Hb.
  unfold json_valid. rewrite E.
  change (skip_ws (34 :: body)) with (34 :: body).
  change (value (S (length (34 :: body))) (34 :: body)) with (string_body body).
  rewrite Hb. reflexivity.
Qed.

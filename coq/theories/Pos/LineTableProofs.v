(* C16: count_le specifies both searches.  A sorted table divides the offsets into cells; what unpack
   and the file lookup return is said through the cell an offset lies in (in_cell). *)
From Coq Require Import List ZArith Bool Lia.
From Ugo Require Import Pos.LineTable.
Import ListNotations.
Local Open Scope Z_scope.

Lemma sorted_tail {y r} : sorted (y :: r) -> sorted r.
Proof. intros H p q Hpq. specialize (H (S p) (S q)). simpl in H. apply H. lia. Qed.

Lemma sorted_head_lt {y r} q : sorted (y :: r) -> (q < length r)%nat -> y < nth q r 0.
Proof. intros H Hq. specialize (H 0%nat (S q)). simpl in H. apply H. lia. Qed.

Lemma count_le_bound a x : (count_le a x <= length a)%nat.
Proof. induction a as [|y r IH]; simpl; [lia|]. destruct (y <=? x); simpl; lia. Qed.

Lemma count_le_app_all a b x :
  (forall y, In y a -> y <= x) -> count_le (a ++ b) x = (length a + count_le b x)%nat.
Proof.
  induction a as [|y r IH]; intros H; simpl; [reflexivity|].
  destruct (Z.leb_spec y x) as [Hy|Hy]; [|specialize (H y (or_introl eq_refl)); lia].
  rewrite IH by (intros z Hz; apply H; right; exact Hz). reflexivity.
Qed.

Lemma count_le_map_add a k x : count_le (map (fun o => o + k) a) (x + k) = count_le a x.
Proof.
  induction a as [|y r IH]; simpl; [reflexivity|].
  destruct (Z.leb_spec (y + k) (x + k)), (Z.leb_spec y x); lia.
Qed.

Lemma count_le_iff a x p :
  sorted a -> ((p < count_le a x)%nat <-> (p < length a)%nat /\ nth p a 0 <= x).
Proof.
  revert p. induction a as [|y r IH]; intros p Hs; simpl in *; [lia|].
  destruct (Z.leb_spec y x) as [Hy|Hy]; (destruct p as [|p]; [lia|]).
  - pose proof (IH p (sorted_tail Hs)). lia.
  - split; [lia|]. intros [Hp Hle]. pose proof (sorted_head_lt p Hs ltac:(lia)). lia.
Qed.

Lemma mid_bounds i j : (i < j -> i <= i + (j - i) / 2 < j)%nat.
Proof. intros H. pose proof (Nat.div_lt (j - i) 2 ltac:(lia) ltac:(lia)). lia. Qed.

Lemma bs_loop_count fuel a x i j :
  sorted a -> (i <= count_le a x <= j)%nat -> (j <= length a)%nat -> (j < i + fuel)%nat ->
  bs_loop fuel a x i j = count_le a x.
Proof.
  intros Hs. revert i j. induction fuel as [|f IH]; intros i j Hij Hj Hf; [lia|].
  cbn [bs_loop]. destruct (Nat.ltb_spec i j) as [Hlt|Hge]; [|lia].
  pose proof (mid_bounds i j Hlt) as Hh. set (h := (i + (j - i) / 2)%nat) in *. clearbody h.
  (* the probe h lies below the count exactly when a[h] <= x: either half keeps i <= count <= j *)
  pose proof (count_le_iff a x h Hs) as Hc.
  destruct (Z.leb_spec (nth h a 0) x); apply IH; lia.
Qed.

Theorem search_ints_spec a x : sorted a -> search_ints a x = Z.of_nat (count_le a x) - 1.
Proof.
  intros Hs. unfold search_ints. pose proof (count_le_bound a x).
  rewrite bs_loop_count by (exact Hs || lia). reflexivity.
Qed.

(* entry k is the line (the file) that holds x *)
Definition in_cell (a : list Z) (x : Z) (k : nat) : Prop :=
  (k < length a)%nat /\ nth k a 0 <= x /\ forall q, (k < q < length a)%nat -> x < nth q a 0.

Lemma count_le_cell a x k : sorted a -> (count_le a x = S k <-> in_cell a x k).
Proof.
  intros Hs. pose proof (count_le_iff a x k Hs). split.
  - intros E. repeat split; [lia..|].
    intros q Hq. pose proof (count_le_iff a x q Hs). lia.
  - intros (Hk & H1 & H2). pose proof (count_le_iff a x (S k) Hs).
    destruct (Nat.lt_ge_cases (S k) (length a)) as [Hl|Hl]; [|lia].
    specialize (H2 (S k) ltac:(lia)). lia.
Qed.

(* nth 0 a 1 = 0, the default being 1: a is not empty and its first entry is 0, as SourceFile.Lines
   is kept ("the first entry is always 0") *)
Lemma count_le_pos a x : nth 0 a 1 = 0 -> 0 <= x -> (1 <= count_le a x)%nat.
Proof.
  destruct a as [|y r]; simpl; intros H0 Hx; [lia|]. subst y. destruct (Z.leb_spec 0 x); lia.
Qed.

Lemma cell_exists a x : sorted a -> nth 0 a 1 = 0 -> 0 <= x -> exists k, in_cell a x k.
Proof.
  intros Hs H0 Hx. pose proof (count_le_pos a x H0 Hx).
  destruct (count_le a x) as [|k] eqn:E; [lia|]. exists k. apply count_le_cell; assumption.
Qed.

Lemma unpack_count lines off : sorted lines ->
  unpack lines off = match count_le lines off with
                     | O => (0, 0)
                     | S k => (Z.of_nat k + 1, off - nth k lines 0 + 1)
                     end.
Proof.
  intros Hs. unfold unpack. rewrite search_ints_spec by exact Hs.
  destruct (count_le lines off) as [|k]; [reflexivity|].
  replace (Z.of_nat (S k) - 1) with (Z.of_nat k) by lia. rewrite Nat2Z.id.
  destruct (Z.leb_spec 0 (Z.of_nat k)); [reflexivity | lia].
Qed.

Lemma unpack_at lines off k : sorted lines -> in_cell lines off k ->
  unpack lines off = (Z.of_nat k + 1, off - nth k lines 0 + 1).
Proof.
  intros Hs Hc. rewrite unpack_count by exact Hs.
  apply count_le_cell in Hc as ->; [reflexivity | exact Hs].
Qed.

Theorem unpack_correct lines off :
  sorted lines -> nth 0 lines 1 = 0 -> 0 <= off ->
  exists k, (k < length lines)%nat /\
    unpack lines off = (Z.of_nat k + 1, off - nth k lines 0 + 1) /\
    nth k lines 0 <= off /\ (forall q, (k < q < length lines)%nat -> off < nth q lines 0).
Proof.
  intros Hs H0 Hoff. destruct (cell_exists lines off Hs H0 Hoff) as [k Hc]. exists k.
  rewrite (unpack_at lines off k Hs Hc). destruct Hc as (Hk & Hle & Hgt). auto.
Qed.

Lemma shift_lines_length k lines : length (shift_lines k lines) = (k + length lines)%nat.
Proof. unfold shift_lines. rewrite app_length, !map_length, seq_length. reflexivity. Qed.

Lemma nth_shift_lo k lines i : (i < k)%nat -> nth i (shift_lines k lines) 0 = Z.of_nat i.
Proof.
  intros H. unfold shift_lines. rewrite app_nth1 by (rewrite map_length, seq_length; exact H).
  change 0 with (Z.of_nat 0). rewrite map_nth, seq_nth by exact H. reflexivity.
Qed.

Lemma nth_shift_hi k lines i :
  (k <= i < k + length lines)%nat ->
  nth i (shift_lines k lines) 0 = nth (i - k) lines 0 + Z.of_nat k.
Proof.
  intros H. unfold shift_lines. rewrite app_nth2; rewrite map_length, seq_length; [|lia].
  (* map_nth wants the default in the form f d *)
  rewrite (nth_indep _ 0 (0 + Z.of_nat k)) by (rewrite map_length; lia).
  exact (map_nth (fun o => o + Z.of_nat k) lines 0 (i - k)).
Qed.

Lemma table_nonneg lines i :
  sorted lines -> nth 0 lines 1 = 0 -> (i < length lines)%nat -> 0 <= nth i lines 0.
Proof.
  intros Hs H0 Hi. destruct lines as [|y r]; [simpl in Hi; lia|]. simpl in H0. subst y.
  destruct i; [simpl; lia|]. specialize (Hs 0%nat (S i) ltac:(lia)). simpl in Hs. simpl. lia.
Qed.

Lemma sorted_shift k lines : sorted lines -> nth 0 lines 1 = 0 -> sorted (shift_lines k lines).
Proof.
  intros Hs H0 p q Hpq. rewrite shift_lines_length in Hpq.
  destruct (Nat.lt_ge_cases q k) as [Hq|Hq]; [rewrite !nth_shift_lo by lia; lia|].
  rewrite (nth_shift_hi k lines q) by lia.
  destruct (Nat.lt_ge_cases p k) as [Hp|Hp].
  - rewrite nth_shift_lo by lia. pose proof (table_nonneg lines (q - k) Hs H0 ltac:(lia)). lia.
  - rewrite nth_shift_hi by lia. specialize (Hs (p - k)%nat (q - k)%nat ltac:(lia)). lia.
Qed.

Lemma count_le_shift k lines off : 0 <= off ->
  count_le (shift_lines k lines) (off + Z.of_nat k) = (k + count_le lines off)%nat.
Proof.
  intros Hoff. unfold shift_lines.
  rewrite count_le_app_all, map_length, seq_length, count_le_map_add; [reflexivity|].
  intros y Hy. apply in_map_iff in Hy as (i & <- & Hi). apply in_seq in Hi. lia.
Qed.

Theorem lines_shift k lines off :
  sorted lines -> nth 0 lines 1 = 0 -> 0 <= off ->
  let '(l1, c1) := unpack lines off in
  unpack (shift_lines k lines) (off + Z.of_nat k) = (l1 + Z.of_nat k, c1).
Proof.
  intros Hs H0 Hoff. rewrite (unpack_count lines) by exact Hs.
  rewrite unpack_count by (apply sorted_shift; assumption). rewrite count_le_shift by exact Hoff.
  pose proof (count_le_pos lines off H0 Hoff). pose proof (count_le_bound lines off).
  destruct (count_le lines off) as [|i]; [lia|].
  rewrite Nat.add_succ_r, nth_shift_hi by lia. replace (k + i - k)%nat with i by lia. f_equal; lia.
Qed.

Theorem unpack_inverse lines off :
  sorted lines -> nth 0 lines 1 = 0 -> 0 <= off ->
  let '(l, c) := unpack lines off in
  1 <= l <= Z.of_nat (length lines) /\ 1 <= c /\ nth (Z.to_nat (l - 1)) lines 0 + c - 1 = off.
Proof.
  intros Hs H0 Hoff.
  destruct (unpack_correct lines off Hs H0 Hoff) as [k [Hk [Hu [Hle _]]]].
  rewrite Hu.
  replace (Z.to_nat (Z.of_nat k + 1 - 1)) with k by lia.
  repeat split; lia.
Qed.

(* two different offsets of one file are never reported as the same line:column *)
Theorem unpack_injective lines o1 o2 :
  sorted lines -> nth 0 lines 1 = 0 -> 0 <= o1 -> 0 <= o2 ->
  unpack lines o1 = unpack lines o2 -> o1 = o2.
Proof.
  intros Hs H0 H1 H2 He.
  pose proof (unpack_inverse lines o1 Hs H0 H1) as I1.
  pose proof (unpack_inverse lines o2 Hs H0 H2) as I2.
  rewrite He in I1. destruct (unpack lines o2) as [l c].
  destruct I1 as [_ [_ E1]]. destruct I2 as [_ [_ E2]]. lia.
Qed.

(* the ranges [base, base+size] of the files of a set, as AddFile lays them out: sizes are not
   negative and a later file starts after the end (EOF position included) of every earlier one *)
Definition files_ok (files : list (Z * Z)) : Prop :=
  (forall i b s, nth_error files i = Some (b, s) -> 0 <= s) /\
  (forall i j bi si bj sj, (i < j)%nat -> nth_error files i = Some (bi, si) ->
     nth_error files j = Some (bj, sj) -> bi + si < bj).

Lemma search_files_count files p i :
  search_files files p i = i + Z.of_nat (count_le (map fst files) p) - 1.
Proof.
  revert i. induction files as [|[b s] r IH]; intros i; simpl; [lia|].
  destruct (Z.ltb_spec p b) as [Hlt|Hge], (Z.leb_spec b p) as [Hle|Hgt]; try lia.
  rewrite IH. lia.
Qed.

Lemma base_of_entry {files : list (Z * Z)} {k b s} :
  nth_error files k = Some (b, s) ->
  (k < length (map fst files))%nat /\ nth k (map fst files) 0 = b.
Proof.
  intros H. apply (map_nth_error fst) in H. split.
  - apply nth_error_Some. congruence.
  - exact (nth_error_nth _ _ 0 H).
Qed.

Lemma entry_of_base (files : list (Z * Z)) k :
  (k < length (map fst files))%nat ->
  exists b s, nth_error files k = Some (b, s) /\ nth k (map fst files) 0 = b.
Proof.
  intros H. destruct (nth_error files k) as [[b s]|] eqn:E.
  - exists b, s. split; [reflexivity | apply (base_of_entry E)].
  - apply nth_error_None in E. rewrite map_length in H. lia.
Qed.

Lemma files_ok_sorted files : files_ok files -> sorted (map fst files).
Proof.
  intros [Hsz Hno] p q Hpq.
  destruct (entry_of_base files p ltac:(lia)) as (bp & sp & Ep & ->).
  destruct (entry_of_base files q ltac:(lia)) as (bq & sq & Eq & ->).
  pose proof (Hsz _ _ _ Ep). pose proof (Hno p q _ _ _ _ ltac:(lia) Ep Eq). lia.
Qed.

Lemma files_cell {files p k b s} :
  files_ok files -> nth_error files k = Some (b, s) -> b <= p <= b + s ->
  in_cell (map fst files) p k.
Proof.
  intros [_ Hno] E Hp. destruct (base_of_entry E) as [Hk Eb].
  unfold in_cell. rewrite Eb. repeat split; [exact Hk | lia..|].
  intros q Hq. destruct (entry_of_base files q ltac:(lia)) as (bq & sq & Eq & ->).
  pose proof (Hno k q _ _ _ _ ltac:(lia) E Eq). lia.
Qed.

(* SourceFileSet.file: searchFiles, then the test against the end of the file found *)
Lemma file_of_count files p :
  file_of files p =
  match count_le (map fst files) p with
  | O => None
  | S k => match nth_error files k with
           | Some (b, s) => if p <=? b + s then Some k else None
           | None => None
           end
  end.
Proof.
  unfold file_of. rewrite search_files_count.
  destruct (count_le (map fst files) p) as [|k]; [reflexivity|].
  replace (0 + Z.of_nat (S k) - 1) with (Z.of_nat k) by lia. rewrite Nat2Z.id.
  destruct (Z.ltb_spec (Z.of_nat k) 0); [lia | reflexivity].
Qed.

(* the lookup returns exactly the file whose range contains the position, and no file when no
   range does; the shortcut through LastFile returns a file whose range contains the position,
   hence (ranges being disjoint) the same one *)
Theorem file_of_spec files p k :
  files_ok files ->
  (file_of files p = Some k <-> exists b s, nth_error files k = Some (b, s) /\ b <= p <= b + s).
Proof.
  intros Hok. pose proof (files_ok_sorted files Hok) as Hs. rewrite file_of_count. split.
  - destruct (count_le (map fst files) p) as [|c] eqn:Ec; [discriminate|].
    apply count_le_cell in Ec as (_ & Hle & _); [|exact Hs].
    destruct (nth_error files c) as [[b s]|] eqn:E; [|discriminate].
    destruct (Z.leb_spec p (b + s)); [|discriminate]. intros [= <-].
    destruct (base_of_entry E) as [_ Eb]. rewrite Eb in Hle. eauto.
  - intros (b & s & E & Hp).
    rewrite (proj2 (count_le_cell _ p k Hs) (files_cell Hok E Hp)), E.
    destruct (Z.leb_spec p (b + s)); [reflexivity | lia].
Qed.

Corollary file_of_unique files p k1 k2 b1 s1 b2 s2 :
  files_ok files -> nth_error files k1 = Some (b1, s1) -> nth_error files k2 = Some (b2, s2) ->
  b1 <= p <= b1 + s1 -> b2 <= p <= b2 + s2 -> k1 = k2.
Proof.
  intros Hok E1 E2 H1 H2.
  assert (A1: file_of files p = Some k1) by (apply file_of_spec; eauto).
  assert (A2: file_of files p = Some k2) by (apply file_of_spec; eauto).
  congruence.
Qed.

Lemma sorted_snoc lines off :
  sorted lines -> (lines <> [] -> nth (length lines - 1) lines 0 < off) -> sorted (lines ++ [off]).
Proof.
  intros Hs Hl p q Hpq. rewrite app_length in Hpq. simpl in Hpq.
  destruct (Nat.lt_ge_cases q (length lines)) as [Hq|Hq].
  - rewrite !app_nth1 by lia. apply Hs. lia.
  - replace q with (length lines) by lia. rewrite nth_middle, app_nth1 by lia.
    assert (Hl' := Hl ltac:(intros ->; simpl in Hpq; lia)).
    destruct (Nat.eq_dec p (length lines - 1)) as [->|Hne]; [exact Hl'|].
    specialize (Hs p (length lines - 1)%nat ltac:(lia)). lia.
Qed.

Definition table_ok (lines : list Z) : Prop := sorted lines /\ nth 0 lines 1 = 0.

Lemma add_line_ok size lines off : table_ok lines -> table_ok (add_line size lines off).
Proof.
  intros [Hs H0]. unfold add_line.
  destruct ((Nat.eqb (length lines) 0 || (nth (length lines - 1) lines 0 <? off)) && (off <? size)) eqn:E;
    [|split; assumption].
  destruct lines as [|y r]; [discriminate H0|].
  apply andb_prop in E as [E _]. cbn [length Nat.eqb orb] in E. apply Z.ltb_lt in E.
  split; [apply sorted_snoc; [exact Hs | intros _; exact E] | exact H0].
Qed.

Theorem add_lines_ok size offs : table_ok (add_lines size offs).
Proof.
  unfold add_lines.
  assert (H: table_ok [0]) by (split; [intros p q Hpq; simpl in Hpq; lia | reflexivity]).
  revert H. generalize [0]. induction offs as [|o r IH]; intros l Hl; simpl; [exact Hl|].
  apply IH. apply add_line_ok. exact Hl.
Qed.

(* hence on every table a scanner can build, every offset is reported at the unique line that
   contains it (no sortedness hypothesis left) *)
Corollary unpack_correct_reachable size offs off :
  0 <= off ->
  let lines := add_lines size offs in
  exists k, (k < length lines)%nat /\
    unpack lines off = (Z.of_nat k + 1, off - nth k lines 0 + 1) /\
    nth k lines 0 <= off /\ (forall q, (k < q < length lines)%nat -> off < nth q lines 0).
Proof.
  intros Hoff lines. destruct (add_lines_ok size offs) as [Hs H0].
  exact (unpack_correct lines off Hs H0 Hoff).
Qed.

Lemma source_pos_nat_spec m ip :
  (exists k, 0 <= k <= Z.of_nat ip /\ sm_get m k = Some (source_pos_nat m ip) /\
             forall j, k < j <= Z.of_nat ip -> sm_get m j = None) \/
  (source_pos_nat m ip = 0 /\ forall j, 0 <= j <= Z.of_nat ip -> sm_get m j = None).
Proof.
  induction ip as [|n IH]; cbn [source_pos_nat].
  - destruct (sm_get m (Z.of_nat 0)) as [p|] eqn:E.
    + left. exists (Z.of_nat 0). split; [lia|]. split; [exact E|]. intros j Hj. lia.
    + right. split; [reflexivity|]. intros j Hj. replace j with (Z.of_nat 0) by lia. exact E.
  - destruct (sm_get m (Z.of_nat (S n))) as [p|] eqn:E.
    + left. exists (Z.of_nat (S n)). split; [lia|]. split; [exact E|]. intros j Hj. lia.
    + destruct IH as [(k & Hk & Hg & Hn)|[H0 Hn]].
      * left. exists k. split; [lia|]. split; [exact Hg|]. intros j Hj.
        destruct (Z.eq_dec j (Z.of_nat (S n))) as [->|Hne]; [exact E | apply Hn; lia].
      * right. split; [exact H0|]. intros j Hj.
        destruct (Z.eq_dec j (Z.of_nat (S n))) as [->|Hne]; [exact E | apply Hn; lia].
Qed.

(* the position returned for ip is the one recorded at the greatest recorded instruction offset
   at or below ip; it is NoPos exactly when ip is negative or nothing is recorded at or below it
   (or NoPos itself was recorded there) *)
Theorem source_pos_spec m ip :
  (0 <= ip /\ exists k, 0 <= k <= ip /\ sm_get m k = Some (source_pos m ip) /\
                       forall j, k < j <= ip -> sm_get m j = None) \/
  (source_pos m ip = 0 /\ forall j, 0 <= j <= ip -> sm_get m j = None).
Proof.
  unfold source_pos. destruct (Z.ltb_spec ip 0) as [Hneg|Hpos].
  - right. split; [reflexivity|]. intros j Hj. lia.
  - pose proof (source_pos_nat_spec m (Z.to_nat ip)) as H. rewrite Z2Nat.id in H by exact Hpos.
    destruct H as [H|H]; [left; split; [exact Hpos | exact H] | right; exact H].
Qed.

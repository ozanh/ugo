(* C02: compiled execution follows the documented source-level semantics.
   The semantics is given independently of the compiler and VM as a definitional interpreter
   (Sem/Sem.v); the check compares it with compiled execution (optimised and not) on generated
   programs.  Proved here, over all histories of symbol table operations (the model tied to
   symbol_table.go by the C13/C10 correspondence): local variables that are live together in one
   function never share a stack slot, although slots are re-used after a block is left - the
   invariant behind "lexical block scoping ... blocks re-using local slots".  Argument binding
   (fixed / variadic / spread) is proved in Properties/C14.v.  The examples below evaluate the
   documented rules on the interpreter; they are tests of the definition, not theorems about
   the compiler (see DESIGN.md for what is and is not proved). *)
From Coq Require Import List ZArith String.
From Ugo Require Import Base.Res Value.PValue Value.Ops Comp.SymTab Comp.SlotProofs Sem.Sem Sem.SemOps ExprComp.ExprComp ExprComp.ExprCompProofs ExprComp.StmtComp ExprComp.StmtCompProofs ExprComp.RunProofs.
Import ListNotations.
Local Open Scope string_scope.

Theorem C02_live_locals_distinct : forall ops,
  let s := fst (run_ops new_symbol_table ops) in
  forall t1 r1 t2 r2 n1 n2 sym1 sym2,
    In (t1, r1) (fn_segment s) -> In (t2, r2) (fn_segment s) ->
    lookup n1 (t_store t1) = Some sym1 -> lookup n2 (t_store t2) = Some sym2 ->
    is_local sym1 = true -> is_local sym2 = true ->
    s_index sym1 = s_index sym2 -> List.length r1 = List.length r2 /\ n1 = n2.
Proof. intros ops s. apply live_locals_distinct_in, run_ops_slots, slots_new. Qed.
Print Assumptions C02_live_locals_distinct.

(* Compiler correctness for the expression fragment (constants, locals, every binary and unary
   operator, == / !=, short-circuit && / ||, the conditional expression): the code which the
   compiler model emits for e at any byte position, embedded in any surrounding code, run by the
   machine model from any stack, pushes exactly the source-level value of e and stops right after
   the code; an operator error is thrown as the same error.  The compiler model is compared with
   the real compiler instruction by instruction (positions, operands, jump targets) and the
   machine model with the real VM on every run of the check.  Operators are those of the operator
   model of C15. *)
Theorem C02_expr_compile_correct : forall consts locals e pre post st,
  runs consts locals (pre ++ xcompile (xcsize pre) e ++ post) (xcsize pre) e st.
Proof. exact compile_correct. Qed.
Print Assumptions C02_expr_compile_correct.

(* the interpreter's operators on the values of its fragment are those of the operator model *)
Theorem C02_sem_operators_agree : forall op t x y r,
  tok_of op = Some t -> sem_binop op (VInt x) (VInt y) = Some r ->
  exists p, pv r = Some p /\ binop t (PInt x) (PInt y) = Ok p.
Proof. exact sem_binop_int_agrees. Qed.
Print Assumptions C02_sem_operators_agree.

Example C02_expr_example :
  let e := XCond (XBin TLess (XLocal 0) (XConst 0)) (XAnd (XLocal 1) (XConst 1)) (XUn TSub (XLocal 0)) in
  xceval [PInt 5; PInt 7] [PInt 3; PInt 0] e = Ok (PInt 0) /\
  xmrun 100 [PInt 5; PInt 7] (xcompile 0 e) (xcsize (xcompile 0 e)) (XRunning 0 [PInt 3; PInt 0] []) = XRunning 31 [PInt 3; PInt 0] [PInt 0].
Proof. vm_compute. split; reflexivity. Qed.

(* Compiler correctness for statements over local variables (assignment and definition of a
   local, expression statements, if / else if / else, for loops with break and continue, return):
   whenever the source-level execution of a well-formed statement terminates (any fuel), the
   machine running the code which the compiler model emits for it - at any byte position,
   embedded in any surrounding code, with any jump targets for break and continue - reaches the
   position after the code with the same locals (normal end), the break / continue target with
   the same locals, the returned value, or the same thrown error.  Well-formed: the post
   statement of a loop is a simple statement, as the parser guarantees.  The compiler model is
   compared with the real compiler instruction by instruction (slots, byte positions, jump
   targets) and all three executions (real VM, machine model, source level) are compared on
   every run of the check. *)
Theorem C02_stmt_compile_correct : forall consts fuel s locals pre post brk cont st,
  sruns consts fuel (pre ++ scompile (xcsize pre) brk cont s ++ post) (xcsize pre) brk cont s locals st.
Proof. exact scompile_correct. Qed.
Print Assumptions C02_stmt_compile_correct.

(* a whole function body: code at position 0, empty stack *)
Theorem C02_function_body_correct : forall consts fuel s locals, wf s = true ->
  match sexec fuel consts locals s with
  | Ok (QReturn v, _) => mstar consts (scompile 0 0 0 s) (XRunning 0 locals []) (XReturned v)
  | Ok (QNormal, l') => mstar consts (scompile 0 0 0 s) (XRunning 0 locals []) (XRunning (ssize s) l' [])
  | Ok (_, _) => True
  | Err e => mstar consts (scompile 0 0 0 s) (XRunning 0 locals []) (XThrown e)
  | _ => True
  end.
Proof. exact function_body_correct. Qed.
Print Assumptions C02_function_body_correct.

(* the same for the bounded runner xmrun, the function which the check executes on the model's code:
   with enough fuel it returns the value, or throws the error, of the source-level execution *)
Theorem C02_function_body_runs : forall consts fuel s locals, wf s = true ->
  match sexec fuel consts locals s with
  | Ok (QReturn v, _) => exists n, xmrun n consts (scompile 0 0 0 s) (ssize s) (XRunning 0 locals []) = XReturned v
  | Err e => exists n, xmrun n consts (scompile 0 0 0 s) (ssize s) (XRunning 0 locals []) = XThrown e
  | _ => True
  end.
Proof. exact function_body_runs. Qed.
Print Assumptions C02_function_body_runs.

(* non-vacuity: s := 0; for i := 0; i < 3; i = i + 1 { if i == 1 { continue }; s = s + i }; return s
   (locals: s = 0, i = 1; constants 0 3 1) is well-formed, returns 2 at source level, and the
   machine run on the emitted code returns 2 *)
Example C02_stmt_example :
  let k0 := XConst 0 in let k3 := XConst 1 in let k1 := XConst 2 in
  let s := TSeq (TDef 0 k0) (TSeq (TDef 1 k0)
             (TSeq (TFor (XBin TLess (XLocal 1) k3)
                         (TSeq (TIf (XEq (XLocal 1) k1) TContinue) (TSet 0 (XBin TAdd (XLocal 0) (XLocal 1))))
                         (TSet 1 (XBin TAdd (XLocal 1) k1)))
                   (TRet (XLocal 0)))) in
  let consts := [PInt 0; PInt 3; PInt 1] in
  wf s = true /\
  sexec 100 consts [PUndef; PUndef] s = Ok (QReturn (PInt 2), [PInt 2; PInt 3]) /\
  xmrun 1000 consts (scompile 0 0 0 s) (xcsize (scompile 0 0 0 s)) (XRunning 0 [PUndef; PUndef] []) = XReturned (PInt 2).
Proof. vm_compute. repeat split; reflexivity. Qed.

(* non-vacuity: slots are re-used by sibling blocks and distinct in nested ones *)
Example C02_slot_reuse :
  let '(_, rs) := run_ops new_symbol_table
      [ODefineLocal "a"; OFork true; ODefineLocal "b"; OFork true; ODefineLocal "c"; OLeave; OLeave; OFork true; ODefineLocal "d"] in
  map (fun r => match r with RSym sym _ => s_index sym | _ => (-1)%Z end) rs = [0; -1; 1; -1; 2; -1; -1; -1; 1]%Z.
Proof. vm_compute. reflexivity. Qed.

(* documented rules evaluated on the definition *)
Definition v (x : string) := XVarE x.
Definition call f args := XCallE f args None.

(* f = func(n) { if n == 0 { return 5 }; f(n-1) }; f(3)  is undefined: a discarded self call is not a tail call *)
Example C02_sem_discarded_self_call :
  sem_run_program 200
    [TVarS "f" None;
     TAssignS "f" (XFuncE ["n"] false [TIfS (XBinE OBEq (v "n") (XIntE 0)) [TReturnS (Some (XIntE 5))] [];
                                      TExprS (call (v "f") [XBinE OBSub (v "n") (XIntE 1)])]);
     TReturnS (Some (call (v "f") [XIntE 3]))] = PValue OBUndef.
Proof. vm_compute. reflexivity. Qed.

(* a[log(1)] = log(2): the right-hand side is evaluated before the target *)
Example C02_sem_rhs_before_target :
  sem_run_program 200
    [TDefineS "out" (XArrE []);
     TDefineS "log" (XFuncE ["x"] false [TAssignS "out" (XAppendE (v "out") [v "x"]); TReturnS (Some (v "x"))]);
     TDefineS "a" (XArrE [XIntE 0; XIntE 0; XIntE 0]);
     TIndexAssignS (v "a") (call (v "log") [XIntE 1]) (call (v "log") [XIntE 2]);
     TReturnS (Some (XArrE [v "out"; v "a"]))]
  = PValue (OBArr [OBArr [OBInt 2; OBInt 1]; OBArr [OBInt 0; OBInt 2; OBInt 0]]).
Proof. vm_compute. reflexivity. Qed.

(* one fresh variable per executed declaration, the loop variable itself is one variable *)
Example C02_sem_closures_per_iteration :
  sem_run_program 400
    [TDefineS "fs" (XArrE []);
     TForS (Some (TDefineS "i" (XIntE 0))) (Some (XBinE OBLt (v "i") (XIntE 3))) (Some (TOpAssignS "i" OBAdd (XIntE 1)))
       [TDefineS "w" (v "i"); TAssignS "fs" (XAppendE (v "fs") [XFuncE [] false [TReturnS (Some (XArrE [v "i"; v "w"]))]])];
     TReturnS (Some (XArrE [call (XIndexE (v "fs") (XIntE 0)) []; call (XIndexE (v "fs") (XIntE 2)) []]))]
  = PValue (OBArr [OBArr [OBInt 3; OBInt 0]; OBArr [OBInt 3; OBInt 2]]).
Proof. vm_compute. reflexivity. Qed.

(* Property C04: encoding bytecode and decoding it again preserves behaviour.
   C04_object_rt: for every object the tagged codec can hold - scalars in range, strings, bytes,
   arrays, maps, sync maps (nil or not), function and builtin function objects, compiled functions
   (parameter and local counts, instructions, variadic flag, source map), nested through arrays,
   maps and sync maps to any depth - decoding the encoding, followed by arbitrary further bytes,
   returns exactly that object and those bytes (map entries in the order the encoder wrote them).
   Varint / zig-zag / length-prefixed varint round trips are proved separately.
   Modelled but not proved as a whole: compiled functions stored as constants inside other compiled
   functions are a field of Bytecode, not of the object codec: the Bytecode container (constants
   array, main function, module count) and the file set are exercised by cross decoding model <->
   implementation and whole-program round trips on every run (hence PARTIAL). *)
From Coq Require Import List ZArith Lia.
From Ugo Require Import Base.Res Codec.Varint Codec.VarintProofs Codec.Obj Codec.ObjProofs Codec.ObjMapProofs Codec.ObjCFuncProofs Codec.ObjFullProofs Codec.ObjArrayProofs.
Import ListNotations.
Local Open Scope Z_scope.

Fixpoint encodable (v : cval) : bool :=
  match v with
  | CInt z => (- 2 ^ 63 <=? z) && (z <? 2 ^ 63)
  | CUint z | CFloat z => (0 <=? z) && (z <? 2 ^ 64)
  | CChar z => (- 2 ^ 31 <=? z) && (z <? 2 ^ 31)
  | CArr l => forallb encodable l
  | CMap m | CSyncMap (Some m) => forallb (fun kv => encodable (snd kv)) m
  | _ => true
  end.

(* the objects: scalars in range, well-formed compiled functions *)
Theorem C04_object_rt :
  forall v rest, okv v -> zlen (encode v) < 2 ^ 61 ->
  forall fuel, (depthf v < fuel)%nat -> decode_object fuel (encode v ++ rest) = Ok (v, rest).
Proof. exact object_rt. Qed.
Print Assumptions C04_object_rt.

(* in particular at the fuel the decoder starts with *)
Theorem C04_decode_encode :
  forall v rest, okv v -> zlen (encode v) < 2 ^ 61 -> (depthf v <= List.length (encode v ++ rest))%nat ->
  decode (encode v ++ rest) = Ok (v, rest).
Proof. intros v rest Hok Hsz Hd. unfold decode. apply object_rt; [exact Hok | exact Hsz | lia]. Qed.
Print Assumptions C04_decode_encode.

Theorem C04_varint_rt :
  forall x rest, - 2 ^ 63 <= x < 2 ^ 63 ->
  varint (put_varint x ++ rest) = (x, Z.of_nat (length (put_varint x))).
Proof. exact varint_put. Qed.
Print Assumptions C04_varint_rt.

Theorem C04_uvarint_rt :
  forall x rest, 0 <= x < 2 ^ 64 ->
  uvarint (put_uvarint 9 x ++ rest) = (x, Z.of_nat (length (put_uvarint 9 x))).
Proof. exact uvarint_put. Qed.
Print Assumptions C04_uvarint_rt.

Theorem C04_sized_varint_rt :
  forall v rest, - 2 ^ 63 <= v < 2 ^ 63 -> vi_read (vi_to_bytes v ++ rest) = Ok (v, rest).
Proof. exact vi_read_to_bytes. Qed.
Print Assumptions C04_sized_varint_rt.

Theorem C04_int_rt_partial :
  forall f z rest, - 2 ^ 63 <= z < 2 ^ 63 -> decode_object (S f) (enc_int z ++ rest) = Ok (CInt z, rest).
Proof. exact int_rt. Qed.
Print Assumptions C04_int_rt_partial.

Theorem C04_uint_rt_partial :
  forall f z rest, 0 <= z < 2 ^ 64 -> decode_object (S f) (enc_uint z ++ rest) = Ok (CUint z, rest).
Proof. exact uint_rt. Qed.
Print Assumptions C04_uint_rt_partial.

Theorem C04_float_rt_partial :
  forall f bits rest, 0 <= bits < 2 ^ 64 -> decode_object (S f) (enc_float bits ++ rest) = Ok (CFloat bits, rest).
Proof. exact float_rt. Qed.
Print Assumptions C04_float_rt_partial.

Theorem C04_char_rt_partial :
  forall f z rest, - 2 ^ 31 <= z < 2 ^ 31 -> decode_object (S f) (enc_char z ++ rest) = Ok (CChar z, rest).
Proof. exact char_rt. Qed.
Print Assumptions C04_char_rt_partial.

Theorem C04_string_rt_partial :
  forall f s rest, zlen s < 2 ^ 63 -> decode_object (S f) (enc_string s ++ rest) = Ok (CStr s, rest).
Proof. exact string_rt. Qed.
Print Assumptions C04_string_rt_partial.

Theorem C04_bytes_rt_partial :
  forall f s rest, zlen s < 2 ^ 63 -> decode_object (S f) (enc_bytes s ++ rest) = Ok (CBytes s, rest).
Proof. exact bytes_rt. Qed.
Print Assumptions C04_bytes_rt_partial.

(* arrays and maps nested to any depth over scalars, strings and bytes; the size bound is the one
   the length prefixes can express; map entries in the order the encoder wrote them *)
Theorem C04_container_rt_partial :
  forall n v, (depthm v <= n)%nat -> plainm v = true -> zlen (encode v) < 2 ^ 62 ->
  forall f rest, (n <= f)%nat -> decode_object (S f) (encode v ++ rest) = Ok (v, rest).
Proof. exact plainm_rt. Qed.
Print Assumptions C04_container_rt_partial.

(* a compiled function: every field written by the encoder is read back *)
Theorem C04_cfunc_rt_partial :
  forall f fn rest, wf_cfunc fn -> zlen (enc_cfunc_body enc_bytes fn) < 2 ^ 62 ->
  decode_object (S (S f)) (encode (CCompiled fn) ++ rest) = Ok (CCompiled fn, rest).
Proof. intros f fn rest Hwf Hsz. apply cfunc_rt; [exact Hwf | lia]. Qed.
Print Assumptions C04_cfunc_rt_partial.

Example C04_cfunc_example :
  let fn := {| cf_params := 2; cf_locals := 5; cf_insts := Some [1; 0; 3; 42]; cf_variadic := true; cf_srcmap := Some [(0, 17); (3, 25)] |} in
  decode (encode (CCompiled fn) ++ [9]) = Ok (CCompiled fn, [9]) /\
  decode (encode (CCompiled empty_cfunc)) = Ok (CCompiled empty_cfunc, []).
Proof. vm_compute. split; reflexivity. Qed.

Example C04_object_example :
  let v := CArr [CSyncMap None; CSyncMap (Some []); CSyncMap (Some [([97], CFunc [102]); ([], CBuiltin [108; 101; 110])]);
                 CMap [([99], CCompiled empty_cfunc); ([100], CArr [CStr [120]; CChar (-1)])]] in
  okv v /\ depthf v = 3%nat /\ decode (encode v ++ [7]) = Ok (v, [7]).
Proof.
  cbv zeta. split; [|split; vm_compute; reflexivity].
  assert (Hwf: wf_cfunc empty_cfunc).
  { unfold wf_cfunc, empty_cfunc. cbn [cf_params cf_locals cf_insts cf_srcmap]. split; [lia|]. split; [lia|]. split; intros x E; discriminate. }
  cbn [okv snd]. repeat match goal with |- _ /\ _ => split end; try exact I; try lia; exact Hwf.
Qed.

Example C04_container_example :
  let v := CArr [CInt (-5); CMap [([107], CArr [CStr [104; 105]; CArr []; CFloat 9223372036854775808]); ([], CMap [])]; CBytes []] in
  plainm v = true /\ depthm v = 4%nat /\ decode (encode v ++ [1; 2]) = Ok (v, [1; 2]).
Proof. vm_compute. repeat split; reflexivity. Qed.

(* the sign of negative zero survives (the defect D04 of the unrepaired encoder) *)
Example C04_negative_zero :
  decode (encode (CFloat (2 ^ 63))) = Ok (CFloat (2 ^ 63), []) /\ encode (CFloat (2 ^ 63)) <> encode (CFloat 0).
Proof. split; [vm_compute; reflexivity | vm_compute; discriminate]. Qed.

(* nested instance, by computation *)
Example C04_nested_example :
  let v := CArr [CMap [([97], CInt (-5)); ([], CArr [])]; CSyncMap None; CStr [255; 0];
                 CCompiled {| cf_params := 1; cf_locals := 2; cf_insts := Some [1; 2]; cf_variadic := true;
                              cf_srcmap := Some [(0, 5); (3, 7)] |}] in
  decode (encode v) = Ok (v, []).
Proof. vm_compute. reflexivity. Qed.

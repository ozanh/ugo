(* Property C06: with recovery enabled, running a script never panics the host.
   Status: PARTIAL.  The VM's instruction set is not modelled as a whole.  Proved over the model
   of the operators (Value/Ops.v, tied to the implementation by the exhaustive C15 check): no
   binary or unary operator on any operands is a Go panic - the operator panics named by the
   property (remainder by zero, negative shift) are uGO errors; over the model of Run's
   epilogue: reading the result never indexes below the stack on any exit with sp >= 1, and a
   full stack is reported as an error; handlePanic hands a panic to a script handler only in
   states where the unwinding code can index the stack and frame arrays.
   Decided on every run on the implementation under recover(): programs built to fail at every
   resource edge (call depth 1000..1025, frames of 1..250 locals recursing to the 2048-slot
   limit with a callback panic at the edge, literals and calls of 2030..5000 values, Go
   callbacks that panic, throws and panics inside catch and finally), bare and inside every
   handler shape, followed by a known script on the same VM. *)
From Coq Require Import ZArith.
From Ugo Require Import Base.Res Value.PValue Value.Ops Value.OpsProofs VM.RunReset VM.RunResetProofs.
Local Open Scope Z_scope.

Theorem C06_operators_never_panic :
  forall t a b, is_panic (binop t a b) = false /\ is_panic (unop t a) = false.
Proof. intros t a b. split; [apply binop_no_panic | apply unop_no_panic]. Qed.
Print Assumptions C06_operators_never_panic.

Theorem C06_epilogue_no_panic_partial :
  forall s, 1 <= v_sp s -> is_panic (run_epilogue s) = false.
Proof. exact run_epilogue_no_panic. Qed.
Print Assumptions C06_epilogue_no_panic_partial.

Theorem C06_unwind_only_in_bounds_partial :
  forall s, can_unwind s = true -> v_sp s < stack_size /\ v_frame_index s <= frame_size /\ v_err s = None.
Proof. exact can_unwind_bounds. Qed.
Print Assumptions C06_unwind_only_in_bounds_partial.

Example C06_operator_errors :
  binop TRem (PInt 1) (PInt 0) = Err err_zero_division /\ binop TShl (PUint 1) (PInt (-1)) = Ok (PUint 0) /\
  binop TShl (PInt 1) (PInt (-1)) = Err err_negative_shift.
Proof. vm_compute. repeat split; reflexivity. Qed.

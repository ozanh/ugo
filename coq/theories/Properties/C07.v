(* Property C07: a run's outcome depends only on bytecode, globals and arguments.
   Status: PARTIAL.  Proved over a model of every field of VM and of SetBytecode, Clear and
   Run's prologue (initGlobals, initLocals, initCurrentFrame, register resets, module cache
   resize): for ANY two previous VM states - whatever scripts they ran and however those ended -
   the state a run starts from agrees on everything a run can read before writing it: the
   slots below sp, frame 0 (function, handlers, base pointer, discard flag; its free variables
   only when Main has free variables - the stale value kept otherwise is named explicitly),
   the registers, error, abort flag, globals, module cache and bytecode.
   That no instruction reads a slot at or above sp, a frame at or above frameIndex or the stale
   free variables before writing them (dead_slots_unread) needs the full VM model and is not
   proved; it is decided on every run by histories of runs ending in return / uncaught error /
   recovered panic / stack overflow / abort on one VM, compared with a new VM, together with
   a digest of the Bytecode before and after (bytecode_unchanged). *)
From Coq Require Import List ZArith.
From Ugo Require Import Value.PValue VM.RunReset VM.RunResetProofs.
Import ListNotations.
Local Open Scope Z_scope.

Theorem C07_run_state_independent_partial :
  forall s1 s2 bc g args,
  live_of (run_prologue (set_bytecode s1 bc) bc g args) = live_of (run_prologue (set_bytecode s2 bc) bc g args).
Proof. exact run_state_independent. Qed.
Print Assumptions C07_run_state_independent_partial.

Theorem C07_cleared_equals_used_partial :
  forall s1 s2 bc g args,
  live_of (run_prologue (set_bytecode (clear s1) bc) bc g args) = live_of (run_prologue (set_bytecode s2 bc) bc g args).
Proof. exact run_state_independent_cleared. Qed.
Print Assumptions C07_cleared_equals_used_partial.

(* non-vacuity: two very different previous states *)
Example C07_two_histories :
  let bc := {| bc_main := {| mf_params := 2; mf_variadic := true; mf_locals := 3; mf_free := None; mf_id := 7 |};
               bc_modules := 2; bc_id := 1 |} in
  let junk := {| v_stack := fun _ => Some (PInt 99);
                 v_frames := fun _ => {| fr_fn := Some 5; fr_free := Some [1; 2]; fr_handlers := [3; 4]; fr_bp := 40; fr_discard := true; fr_ip := 9 |};
                 v_sp := 2047; v_ip := 55; v_frame_index := 1024; v_err := Some 1; v_abort := true; v_globals := Some 8;
                 v_modules := [Some 1]; v_bytecode := None; v_no_panic := true; v_pool := [1] |} in
  let fresh := {| v_stack := fun _ => None;
                  v_frames := fun _ => {| fr_fn := None; fr_free := None; fr_handlers := []; fr_bp := 0; fr_discard := false; fr_ip := 0 |};
                  v_sp := 0; v_ip := 0; v_frame_index := 0; v_err := None; v_abort := false; v_globals := None;
                  v_modules := []; v_bytecode := None; v_no_panic := true; v_pool := [] |} in
  l_slots (live_of (run_prologue (set_bytecode junk bc) bc 3 [PInt 1; PInt 2; PInt 3])) =
    [Some (PInt 1); Some (PArr [PInt 2; PInt 3]); Some PUndef] /\
  live_of (run_prologue (set_bytecode junk bc) bc 3 [PInt 1; PInt 2; PInt 3]) =
  live_of (run_prologue (set_bytecode fresh bc) bc 3 [PInt 1; PInt 2; PInt 3]).
Proof. split; reflexivity. Qed.

(* C08: many VMs may run one Bytecode concurrently.
   Proved: (1) when a VM step reads the shared Bytecode and writes only the private state of its
   own VM, every interleaving of any number of VMs leaves each VM in the state it reaches alone;
   (2) on bytecode accepted by the validator share_ok - run on the compiled form of every program
   of the check - no instruction other than the import pattern's JUMPFALSY / STOREMODULE ever
   executes while the VM stack refers to a shared mutable constant, on every control path
   (calls, returns, throws and callbacks over-approximated), so scripts reach only the private
   copy of a builtin module value; (3) the opcodes of the current vm.go which read the constant
   pool are those of the model, and no assignment of vm.go targets an element of constants,
   instructions, source maps or the file set (tables regenerated from the source).
   The premise of (1) for the real VM - no write to anything reachable from the Bytecode - is
   a runtime matter: it is checked by the Go race detector over concurrent runs (see DESIGN.md). *)
From Coq Require Import List ZArith.
From Ugo Require Import Gen.VMShare Share.Share Share.ShareProofs Share.ShareCheck.
Import ListNotations.

Theorem C08_interleave_independent : forall (Shared Priv : Type) (step : Shared -> Priv -> Priv) sh sched privs i p,
  nth_error privs i = Some p ->
  nth_error (run_sched Shared Priv step sh privs sched) i = Some (iter Priv (count i sched) (step sh) p).
Proof. exact interleave_independent. Qed.
Print Assumptions C08_interleave_independent.

Theorem C08_share_ok_sound : forall consts fns,
  share_ok consts fns = true ->
  forall l k st i, reach consts fns l k st -> nth_error l k = Some i -> ~ exposed i st.
Proof. exact share_ok_sound. Qed.
Print Assumptions C08_share_ok_sound.

Theorem C08_const_readers_modelled : readers_modelled = true.
Proof. vm_compute. reflexivity. Qed.
Print Assumptions C08_const_readers_modelled.

Theorem C08_no_shared_element_writes : shared_element_writes = [].
Proof. reflexivity. Qed.
Print Assumptions C08_no_shared_element_writes.

(* non-vacuity: the import pattern of a builtin module is accepted, a module constant pushed by
   CONSTANT is rejected, and the abstract execution reaches the state with the shared value *)
Example C08_pattern_accepted :
  share_ok [CkCopier; CkImm]
    [[mkPI 0 5 (SLoadModule 0 0); mkPI 5 5 (SJumpFalsy 13); mkPI 10 3 (SStoreModule 0); mkPI 13 3 (SConstant 1)]] = true /\
  share_ok [CkCopier] [[mkPI 0 3 (SConstant 0)]] = false /\
  share_ok [CkCopier] [[mkPI 0 5 (SLoadModule 0 0); mkPI 5 5 (SJumpFalsy 99); mkPI 10 3 (SStoreModule 0)]] = false.
Proof. vm_compute. repeat split; reflexivity. Qed.
Example C08_shared_value_reachable :
  let l := [mkPI 0 5 (SLoadModule 0 0); mkPI 5 5 (SJumpFalsy 13); mkPI 10 3 (SStoreModule 0)] in
  reach [CkCopier] [l] l 1 [TBool true; TShared].
Proof.
  intros l. eapply (RSeq _ _ l 0 [] (mkPI 0 5 (SLoadModule 0 0))).
  - apply RStart; [left; reflexivity | intros []].
  - reflexivity.
  - apply (ALoadMiss [CkCopier] (mkPI 0 5 (SLoadModule 0 0)) 0 0 []). reflexivity.
Qed.

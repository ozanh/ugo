(* C09: Abort and context cancellation are never lost.
   The abort protocol of vm.go (Abort, the flag reset at Run entry, Invoker.acquire, the
   aborted-check of Invoke, the child VM's Run, release) is modelled as a transition system over
   its control points; the theorem quantifies over every interleaving of the aborting goroutine
   with the running one and over everything the script may do (plain instructions, callbacks
   into child VMs, repeated invocations on one acquired child, returning).  The model of the
   pinned commit's protocol (VOrig) is kept: it provably loses aborts, on the schedules the check
   replays against the implementation.  Nested callbacks (a child VM's script calling back again)
   and the timing of Eval.Run's repeated Abort are outside the model (see DESIGN.md). *)
From Coq Require Import List.
From Ugo Require Import Abort.Abort Abort.AbortProofs.

Theorem C09_abort_never_lost : forall s n s',
  reachable VFixed s -> a s = ADone -> step_bound <= n -> rpath VFixed n s s' -> is_done s' = true.
Proof. exact abort_never_lost. Qed.
Print Assumptions C09_abort_never_lost.

(* at most instr_bound further instructions are executed: the bound is part of the computed check *)
Theorem C09_instruction_bound : bounded VFixed = true /\ instr_bound = 1.
Proof. split; [exact bounded_fixed | reflexivity]. Qed.
Print Assumptions C09_instruction_bound.

Theorem C09_stale_flag_cleared : forall c s, rstep VFixed c init_stale = Some s -> root_flag s = false.
Proof. exact stale_flag_cleared. Qed.
Print Assumptions C09_stale_flag_cleared.

Theorem C09_orig_protocol_loses_abort :
  let s := run VOrig lost_schedule init in
  reachable VOrig s /\ a s = ADone /\ forall n, is_done (spin n s) = false.
Proof. exact orig_protocol_loses_abort. Qed.
Print Assumptions C09_orig_protocol_loses_abort.

(* non-vacuity: states with Abort completed are reachable while the root and while a child runs *)
Example C09_abort_states_reachable :
  existsb (fun s => match a s, r s with ADone, CExec => true | _, _ => false end) (states VFixed) = true /\
  existsb (fun s => match a s, r s with ADone, CLoopCheck => true | _, _ => false end) (states VFixed) = true /\
  existsb (fun s => match a s, r s with ADone, RExec => true | _, _ => false end) (states VFixed) = true /\
  existsb (fun s => match a s, r s with AMid, CExec => true | _, _ => false end) (states VFixed) = true.
Proof. vm_compute. repeat split; reflexivity. Qed.

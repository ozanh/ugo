(* Property C10: evaluating fragments one by one equals evaluating them as one script.
   Status: PARTIAL.  An Eval session compiles every fragment against the same root symbol
   table; proved over the symbol table machine (Comp/SymTab.v, compared with the real table on
   generated operation histories by the C13 check): a variable, constant or global bound at the
   top level is never rebound, moved or removed by ANY later operation history - so names
   declared by an earlier fragment keep their slot, scope and constness in every later
   fragment (root_symbol_stable_history), and builtins disabled at the root stay unreachable
   (C13).  The carried run-time state (locals array with pointer boxes, constants, module
   cache, fixOpPop) is decided on every run by differential execution: every fragment's value
   or error and printed output in one session vs the concatenation run as one script, plus a
   probe of every declared name. *)
From Coq Require Import List ZArith String.
From Ugo Require Import Comp.SymTab Comp.SymTabProofs.
Import ListNotations.
Local Open Scope string_scope.

Theorem C10_root_symbol_stable :
  forall ops s n x,
  root_lookup s n = Some x -> is_builtin_scope x = false ->
  root_lookup (fst (run_ops s ops)) n = Some x.
Proof. exact root_symbol_stable_history. Qed.
Print Assumptions C10_root_symbol_stable.

Example C10_session :
  (* fragment 1 declares a and f; fragment 2 opens a block reusing slots, a function scope
     capturing a, and declares b: a and f keep slot 0 and 1 *)
  let s1 := fst (run_ops new_symbol_table [ODefineLocal "a"; ODefineLocal "f"]) in
  let s2 := fst (run_ops s1 [OFork true; ODefineLocal "t"; OLeave; OFork false; OResolve "a"; OLeave; ODefineLocal "b"]) in
  root_lookup s1 "a" = root_lookup s2 "a" /\ root_lookup s2 "f" = Some {| s_name := "f"; s_index := 1; s_scope := ScLocal; s_const := false |}
  /\ root_lookup s2 "b" = Some {| s_name := "b"; s_index := 2; s_scope := ScLocal; s_const := false |}.
Proof. vm_compute. repeat split; reflexivity. Qed.

(* Property C11: bytecode in the version 1 format still runs the same program.
   Regenerated on every run (Gen/OpTable.v from opcodes.go, opv1/opcodes_v1.go, compiler.go):
   the two opcode tables and MakeInstruction's byte layout; every theorem below is re-proved
   against them each time.
   C11_conv_relocates: for every byte string that is a well-formed version 1 instruction stream
   (it decodes, every jump-class operand is the offset of an instruction or the end) and every
   source map, the model of convCompFuncV1ToV2 succeeds and returns a version 2 stream that
   denotes the same offset-free program - the same opcodes and operands, every jump-class operand
   (JUMP, JUMPFALSY, ANDJUMP, ORJUMP, both operands of SETUPTRY) pointing at the instruction with
   the same index, wherever the jump stands relative to other jumps - and the same source map by
   instruction index.  The model converter is compared byte for byte with the implementation and
   the validator reloc_ok runs on the real converter's output on every run. *)
From Coq Require Import List ZArith.
From Ugo Require Import Base.Res Gen.OpTable Byte.Instr Byte.V1Conv Byte.V1ConvProofs.
Import ListNotations.
Local Open Scope Z_scope.

Theorem C11_conv_relocates :
  forall ins sm a,
    Forall (fun b => 0 <= b < 256) ins ->
    abstract opcodes_v1 ins = Some a ->
    exists ins2 sm2,
      conv_comp_func ins sm = Ok (ins2, sm2) /\
      abstract opcodes_v2 ins2 = Some a /\
      abstract_srcmap opcodes_v2 ins2 sm2 = abstract_srcmap opcodes_v1 ins sm.
Proof. exact conv_relocates. Qed.
Print Assumptions C11_conv_relocates.

(* version 1 and version 2 number the opcodes identically and differ only in the width of the
   jump-class operands (2 -> 4 bytes): nothing else needs conversion *)
Theorem C11_tables_agree : v1_v2_tables_agree = true.
Proof. vm_compute. reflexivity. Qed.
Print Assumptions C11_tables_agree.

(* the bytes written by MakeInstruction are the big-endian layout of the operand widths *)
Theorem C11_make_instruction_layout : layouts_agree = true.
Proof. vm_compute. reflexivity. Qed.
Print Assumptions C11_make_instruction_layout.

(* exactly the five jump-class opcodes carry offsets *)
Theorem C11_jump_class_ops : jump_ops = [12; 13; 14; 15; 34].
Proof. vm_compute. reflexivity. Qed.
Print Assumptions C11_jump_class_ops.

(* a function with a jump behind another jump (the shape the unrepaired converter broke):
   the converted stream denotes the same program *)
Example C11_two_jumps :
  let ins := [12; 0; 6;  13; 0; 10;  21;  12; 0; 0;  41] in   (* JUMP 6; JUMPFALSY 10; NULL; JUMP 0; TRUE *)
  let sm := [(0, 100); (3, 101); (7, 102)] in
  exists ins2 sm2, conv_comp_func ins sm = Ok (ins2, sm2) /\
    reloc_ok ins sm ins2 sm2 = true /\
    ins2 = [12; 0; 0; 0; 10;  13; 0; 0; 0; 16;  21;  12; 0; 0; 0; 0;  41] /\
    sm2 = [(0, 100); (5, 101); (11, 102)].
Proof.
  (* the witnesses come from computing the converter; only then is reloc_ok a closed term *)
  do 2 eexists. split; [vm_compute; reflexivity|]. split; [vm_compute; reflexivity|]. split; reflexivity.
Qed.

(* malformed streams are errors, not panics (the v1 path of property C18) *)
Example C11_bad_opcode : exists e, conv_comp_func [200] [] = Err e.
Proof. vm_compute. eexists; reflexivity. Qed.
Example C11_truncated : exists e, conv_comp_func [12; 0] [] = Err e.
Proof. vm_compute. eexists; reflexivity. Qed.

(* Property C12: a module is loaded once per run and every import sees the same object.
   Proved over the model of the compiler's module store and of the VM's module cache protocol
   (LOADMODULE i; JUMPFALSY; CALL body; STOREMODULE i):
   - whatever the order in which import expressions are compiled (main script, functions,
     modules compiled by forks sharing the store), two requests get the same cache index iff
     they name the same module, and every index is below the store's count;
   - in one run, for ANY execution order of import sites, no module body executes twice and
     any two imports of one module evaluate to the same object (the one kept in the cache).
   - file modules (importers.FileImporter): the name under which a file is kept in the module
     store is a function of the place the import denotes - start at the root, walk through the
     process directory, the work directory of the importing file and the import name, "." stays,
     ".." goes up - so however an import is spelled (redundant "." and "x/.." elements, climbing
     above the work directory and coming back, absolute or relative), one file is one module.
   Isolation of module scopes, cycle / unknown-module detection, privacy of builtin module
   values per VM and the serialization round trip are decided on generated import graphs on
   every run (observed part: partial). *)
From Coq Require Import List ZArith String.
From Ugo Require Import Comp.ModStore Comp.ModStoreProofs Comp.ImportPath Comp.ImportPathProofs.
Import ListNotations.
Local Open Scope Z_scope.

Theorem C12_module_index_unique :
  forall reqs ms its,
  import_all empty_store reqs = (ms, its) ->
  forall i j r1 r2 it1 it2,
    nth_error reqs i = Some r1 -> nth_error reqs j = Some r2 ->
    nth_error its i = Some it1 -> nth_error its j = Some it2 ->
    (m_index it1 = m_index it2 <-> fst (fst r1) = fst (fst r2)) /\ 0 <= m_index it1 < ms_count ms.
Proof. exact module_index_unique. Qed.
Print Assumptions C12_module_index_unique.

Theorem C12_body_at_most_once :
  forall n is s vs,
  exec_imports (init_rstate n) is = (s, vs) ->
  NoDup (execs s) /\
  (forall a b i x y, nth_error is a = Some i -> nth_error is b = Some i ->
                     nth_error vs a = Some (Some x) -> nth_error vs b = Some (Some y) -> x = y).
Proof. exact body_at_most_once. Qed.
Print Assumptions C12_body_at_most_once.

(* module bodies that may throw (an import event says whether the body, if it runs now, throws):
   a body RETURNS at most once and all imports that give a value give the same object; when no
   body throws, a body STARTS at most once (the property as stated) *)
Theorem C12_body_completes_at_most_once :
  forall n evs s vs,
  exec_imports_t (init_tstate n) evs = (s, vs) ->
  NoDup (t_done s) /\
  (forall a b i t1 t2 x y, nth_error evs a = Some (i, t1) -> nth_error evs b = Some (i, t2) ->
                     nth_error vs a = Some (Some x) -> nth_error vs b = Some (Some y) -> x = y).
Proof. exact body_completes_at_most_once. Qed.
Print Assumptions C12_body_completes_at_most_once.

Theorem C12_body_at_most_once_no_throw :
  forall n evs s vs,
  forallb (fun e => negb (snd e)) evs = true ->
  exec_imports_t (init_tstate n) evs = (s, vs) -> NoDup (t_runs s).
Proof.
  intros n evs s vs Hn H. rewrite (no_throw_runs_done H Hn eq_refl).
  exact (proj1 (C12_body_completes_at_most_once n evs s vs H)).
Qed.
Print Assumptions C12_body_at_most_once_no_throw.

(* known finding D12t: with a body that throws, "executes at most once" is false of the
   implementation - the witness (import m; import m, the body throwing both times) is replayed
   on the implementation by the check on every run *)
Theorem C12_body_at_most_once_refuted :
  exists n evs s vs, exec_imports_t (init_tstate n) evs = (s, vs) /\ ~ NoDup (t_runs s).
Proof.
  exists 1%nat, [(0%nat, true); (0%nat, true)]. eexists. eexists. split; [vm_compute; reflexivity|].
  intro H. inversion H as [|x l Hin _]; subst. apply Hin. left. reflexivity.
Qed.
Print Assumptions C12_body_at_most_once_refuted.

(* bodies that execute imports of other modules while they run (a tree of import events), whichever of them throw:
   as long as no event names a module which an enclosing event is loading, a body returns at most once *)
Theorem C12_nested_body_completes_at_most_once :
  forall fuel n e s v,
  noreentry [] e -> exec_nested fuel (init_tstate n) e = (s, v) -> NoDup (t_done s).
Proof. intros fuel n e s v Hn H. exact (proj1 (proj1 (exec_nested_ok fuel H Hn (cache_ok_init n)))). Qed.
Print Assumptions C12_nested_body_completes_at_most_once.

(* known finding D12r: the events of the theorems above are atomic; a body that reaches - through a
   function value it was given, static cycles are rejected by the compiler - an import of the module
   being loaded starts again, returns twice, and the two imports get different objects.  The witness
   is replayed on the implementation by the check on every run. *)
Theorem C12_reentrant_body_refuted :
  exists e s v,
    exec_nested 10 (init_tstate 1) e = (s, v) /\ ~ NoDup (t_done s) /\
    nth_error (t_cache s) 0 = Some (Some 3%Z) /\
    fst (exec_nested 10 (init_tstate 1) (IEv 0 false [])) <> s.
Proof.
  exists (IEv 0%nat false [IEv 0%nat false []]). eexists. eexists.
  split; [vm_compute; reflexivity|]. split; [|split].
  - intro H. inversion H as [|x l Hin _]; subst. apply Hin. left. reflexivity.
  - reflexivity.
  - vm_compute. intro H. discriminate H.
Qed.
Print Assumptions C12_reentrant_body_refuted.

Example C12_diamond :
  (* main imports m1 and m2, both import m3; m3 is requested three times *)
  let '(ms, its) := import_all empty_store [("m1"%string, 1, 0); ("m3"%string, 1, 1); ("m2"%string, 1, 2); ("m3"%string, 1, 9); ("m3"%string, 1, 9)] in
  map m_index its = [0; 1; 2; 1; 1] /\ ms_count ms = 3 /\
  let '(s, vs) := exec_imports (init_rstate 3) [1; 0; 1; 2; 1]%nat in
  execs s = [1; 0; 2] /\ vs = [Some 1; Some 3; Some 1; Some 5; Some 1].
Proof. vm_compute. repeat split; reflexivity. Qed.

(* file modules: the importer's name for (work directory, import name) is the place it denotes *)
Theorem C12_file_name_is_place :
  forall cwd wd name, p_abs cwd = true ->
  fi_name cwd wd name = {| p_abs := true; p_segs := resolve cwd wd name |}.
Proof. exact fi_name_resolve. Qed.
Print Assumptions C12_file_name_is_place.

Theorem C12_file_modules_indexed_by_place :
  forall cwd reqs ms its,
  p_abs cwd = true -> Forall noslash (p_segs cwd) ->
  Forall (fun r => Forall noslash (p_segs (fst (fst r))) /\ Forall noslash (p_segs (snd (fst r)))) reqs ->
  import_all empty_store (file_reqs cwd reqs) = (ms, its) ->
  forall i j wd1 n1 c1 wd2 n2 c2 it1 it2,
    nth_error reqs i = Some (wd1, n1, c1) -> nth_error reqs j = Some (wd2, n2, c2) ->
    nth_error its i = Some it1 -> nth_error its j = Some it2 ->
    (m_index it1 = m_index it2 <-> resolve cwd wd1 n1 = resolve cwd wd2 n2).
Proof. exact file_modules_indexed_by_place. Qed.
Print Assumptions C12_file_modules_indexed_by_place.

Example C12_file_spellings :
  (* process directory /w/p, work directory "." : conf.ugo, ./x/../conf.ugo, ../p/conf.ugo and
     /w/./p//conf.ugo are one file; ../conf.ugo is another *)
  let cwd := {| p_abs := true; p_segs := [""; "w"; "p"]%string |} in
  let wd := {| p_abs := false; p_segs := ["."]%string |} in
  let rel l := {| p_abs := false; p_segs := l |} in
  map (fun n => p_segs (fi_name cwd wd n))
      [rel ["conf.ugo"]; rel ["."; "x"; ".."; "conf.ugo"]; rel [".."; "p"; "conf.ugo"];
       {| p_abs := true; p_segs := [""; "w"; "."; "p"; ""; "conf.ugo"] |}; rel [".."; "conf.ugo"]]%string
  = [["w"; "p"; "conf.ugo"]; ["w"; "p"; "conf.ugo"]; ["w"; "p"; "conf.ugo"]; ["w"; "p"; "conf.ugo"]; ["w"; "conf.ugo"]]%string.
Proof. vm_compute. reflexivity. Qed.

(* Property C14: calling a script function from Go equals calling it inside the script.
   Status: PARTIAL.  Proved: the binding of arguments to parameters.  xOpCallCompiled's
   per-case stack manipulation (fixed, variadic, spread; fewer / equal / more arguments than
   parameters) computes the declarative binding of the effective argument list
   (call_binding_spec), and initLocals - which binds Main's parameters for Run and for
   Invoker.Invoke - yields the same parameter values on every argument tuple an in-script call
   accepts (binding_agrees).  Child-VM set-up (shared globals, module cache, free variables,
   pool recycling) is decided by differential execution of generated call sequences in-script,
   through a Go callback during the run and after the run, pooled and unpooled. *)
From Coq Require Import List ZArith.
From Ugo Require Import Value.PValue VM.CallBinding VM.CallBindingProofs.
Import ListNotations.

Theorem C14_binding_agrees :
  forall nparams variadic args params,
  (variadic = true -> 1 <= nparams) ->
  call_compiled nparams variadic args false = Some params ->
  init_locals nparams variadic args = params.
Proof. exact binding_agrees. Qed.
Print Assumptions C14_binding_agrees.

Theorem C14_call_binding_spec :
  forall nparams variadic args spread,
  (variadic = true -> 1 <= nparams) ->
  call_compiled nparams variadic args spread =
  match effective args spread with
  | Some e => spec_bind nparams variadic e
  | None => None
  end.
Proof. intros nparams variadic args spread _. apply call_binding_spec. Qed.
Print Assumptions C14_call_binding_spec.

Example C14_accepted_tuple :
  call_compiled 2 true [PInt 1; PInt 2; PInt 3] false = Some [PInt 1; PArr [PInt 2; PInt 3]] /\
  init_locals 2 true [PInt 1; PInt 2; PInt 3] = [PInt 1; PArr [PInt 2; PInt 3]] /\
  call_compiled 3 true [PInt 1; PArr [PInt 2; PInt 3; PInt 4]] true = Some [PInt 1; PInt 2; PArr [PInt 3; PInt 4]].
Proof. repeat split; reflexivity. Qed.

(* Property C15: operators obey their algebraic laws and the documented numeric
   semantics.  Statements only; every proof is `exact <lemma>`.
   The model (Value/Ops.v) follows numeric.go / objects.go / vm.go method by method and is
   compared with the implementation on every run (pool x pool x operators, exhaustive). *)
From Coq Require Import List ZArith Bool String Floats.SpecFloat.
From Ugo Require Import Base.Res Base.GoFloat Value.PValue Value.Ops Value.OpsSpec Value.OpsProofs.
Import ListNotations.
Local Open Scope Z_scope.

(* a == b gives the same answer as b == a, for all values (map keys unique, as in any Go map) *)
Theorem C15_equal_sym :
  forall a b, wfb a = true -> wfb b = true -> equal a b = equal b a.
Proof. exact equal_sym. Qed.
Print Assumptions C15_equal_sym.

(* a != b is the negation of a == b (VM dispatch level) *)
Theorem C15_neq_negb :
  forall a b, vm_not_equal a b = PBool (negb (match vm_equal a b with PBool x => x | _ => false end)).
Proof. exact neq_negb. Qed.
Print Assumptions C15_neq_negb.

(* whenever <, <=, >, >= are all defined for a pair (in both orders), NaN aside:
   exactly one of a<b, a==b, a>b;  a<=b = a<b or a==b;  a>=b likewise;  a<b = b>a *)
Theorem C15_cmp_laws :
  forall a b, cmp_defined a b = true -> has_nan a = false -> has_nan b = false ->
  exists lt gt, rel TLess a b = Some lt /\ rel TGreater a b = Some gt /\
    one_true lt (equal a b) gt = true /\
    rel TLessEq a b = Some (lt || equal a b) /\
    rel TGreaterEq a b = Some (gt || equal a b) /\
    rel TGreater b a = Some lt.
Proof. exact cmp_laws. Qed.
Print Assumptions C15_cmp_laws.

(* arithmetic, bitwise and shift operators on numeric operands return the result of the Go
   operation after the documented operand conversion (OpsSpec) whenever they return a value *)
Theorem C15_arith_spec :
  forall t a b v, numeric a = true -> numeric b = true -> arith_tok t = true ->
  binop t a b = Ok v -> spec_binop t a b = Some v.
Proof. exact arith_spec. Qed.
Print Assumptions C15_arith_spec.

(* an undefined operation is an error value, never a Go panic ... *)
Theorem C15_binop_no_panic : forall t a b, is_panic (binop t a b) = false.
Proof. exact binop_no_panic. Qed.
Print Assumptions C15_binop_no_panic.

Theorem C15_unop_no_panic : forall t a, is_panic (unop t a) = false.
Proof. exact unop_no_panic. Qed.
Print Assumptions C15_unop_no_panic.

(* ... and on numeric operands it is the documented ZeroDivisionError or TypeError *)
Theorem C15_numeric_errors_documented :
  forall t a b e, numeric a = true -> numeric b = true -> binop t a b = Err e -> documented_error e = true.
Proof. exact numeric_errors_documented. Qed.
Print Assumptions C15_numeric_errors_documented.

(* Non-vacuity *)
Example C15_cmp_defined_example :
  cmp_defined (PInt (-1)) (PUint 18446744073709551615) = true /\
  cmp_defined (PFloat (f64_of_Z 1)) (PInt 1) = true /\
  cmp_defined (PStr (Ops.bs "a")) (PBytes (Ops.bs "b")) = true /\
  cmp_defined PUndef (PArr []) = true.
Proof. vm_compute. repeat split; reflexivity. Qed.
Example C15_wfb_example :
  wfb (PMap [(Ops.bs "a", PArr [PInt 1; PMap []]); (Ops.bs "b", PFloat S754_nan)]) = true.
Proof. vm_compute. reflexivity. Qed.
Example C15_zero_division_example :
  binop TRem (PInt 1) (PInt 0) = Err err_zero_division /\ binop TShl (PInt 1) (PInt (-1)) = Err err_negative_shift /\
  spec_binop TAdd (PInt 5) (PChar 97) = Some (PChar 102).
Proof. vm_compute. repeat split; reflexivity. Qed.

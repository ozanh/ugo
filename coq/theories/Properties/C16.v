(* Property C16: runtime errors report the true source locations.
   Status: PARTIAL.  Proved over the model of parser/source_file.go: the hand-inlined binary
   search searchInts returns, on every sorted table, the last entry not above the offset
   (search_ints_spec); unpack therefore returns the unique line that contains an offset and the
   1-based column within it (unpack_correct); prepending k blank lines shifts the line of every
   offset by exactly k and leaves its column unchanged (lines_shift); the reported line:column
   determines the offset again (unpack_inverse), so distinct offsets of a file are never reported
   at the same place (unpack_injective); in a file set laid out as AddFile does (disjoint ranges)
   the file lookup returns exactly the file whose range [base, base+size] contains the position
   and none when no range does (file_of_spec, file_of_unique - the LastFile shortcut therefore
   agrees with the search); every table that AddLine builds, from any offsets in any order, is
   sorted and starts with 0, so the hypotheses above hold of every reachable table (add_lines_ok,
   unpack_correct_reachable); the run-time lookup of the source map returns the position
   recorded at the greatest recorded instruction offset at or below ip, and NoPos only when ip is
   negative or nothing (or NoPos) is recorded there (source_pos_spec).
   The path from scanner offsets through AST positions, the optimizer's replacement literals,
   the compiler's source map and the trace construction
   in throw is decided on every run on generated layouts with independently computed expected
   lines, x optimizer x encode/decode x k prepended lines x source modules. *)
From Coq Require Import List ZArith.
From Ugo Require Import Pos.LineTable Pos.LineTableProofs.
Import ListNotations.
Local Open Scope Z_scope.

Theorem C16_search_ints_spec :
  forall a x, sorted a -> search_ints a x = Z.of_nat (count_le a x) - 1.
Proof. exact search_ints_spec. Qed.
Print Assumptions C16_search_ints_spec.

Theorem C16_unpack_correct :
  forall lines off, sorted lines -> nth 0 lines 1 = 0 -> 0 <= off ->
  exists k, (k < length lines)%nat /\
    unpack lines off = (Z.of_nat k + 1, off - nth k lines 0 + 1) /\
    nth k lines 0 <= off /\ (forall q, (k < q < length lines)%nat -> off < nth q lines 0).
Proof. exact unpack_correct. Qed.
Print Assumptions C16_unpack_correct.

Theorem C16_lines_shift :
  forall k lines off, sorted lines -> nth 0 lines 1 = 0 -> 0 <= off ->
  let '(l1, c1) := unpack lines off in
  unpack (shift_lines k lines) (off + Z.of_nat k) = (l1 + Z.of_nat k, c1).
Proof. exact lines_shift. Qed.
Print Assumptions C16_lines_shift.

Theorem C16_unpack_inverse :
  forall lines off, sorted lines -> nth 0 lines 1 = 0 -> 0 <= off ->
  let '(l, c) := unpack lines off in
  1 <= l <= Z.of_nat (length lines) /\ 1 <= c /\ nth (Z.to_nat (l - 1)) lines 0 + c - 1 = off.
Proof. exact unpack_inverse. Qed.
Print Assumptions C16_unpack_inverse.

Theorem C16_unpack_injective :
  forall lines o1 o2, sorted lines -> nth 0 lines 1 = 0 -> 0 <= o1 -> 0 <= o2 ->
  unpack lines o1 = unpack lines o2 -> o1 = o2.
Proof. exact unpack_injective. Qed.
Print Assumptions C16_unpack_injective.

Theorem C16_file_of_spec :
  forall files p k, files_ok files ->
  (file_of files p = Some k <-> exists b s, nth_error files k = Some (b, s) /\ b <= p <= b + s).
Proof. exact file_of_spec. Qed.
Print Assumptions C16_file_of_spec.

Theorem C16_file_of_unique :
  forall files p k1 k2 b1 s1 b2 s2, files_ok files ->
  nth_error files k1 = Some (b1, s1) -> nth_error files k2 = Some (b2, s2) ->
  b1 <= p <= b1 + s1 -> b2 <= p <= b2 + s2 -> k1 = k2.
Proof. exact file_of_unique. Qed.
Print Assumptions C16_file_of_unique.

(* every line table AddLine can build from AddFile's [0] - any offsets, in any order - meets the
   hypotheses of the theorems above *)
Theorem C16_add_lines_ok :
  forall size offs, sorted (add_lines size offs) /\ nth 0 (add_lines size offs) 1 = 0.
Proof. exact add_lines_ok. Qed.
Print Assumptions C16_add_lines_ok.

Theorem C16_unpack_correct_reachable :
  forall size offs off, 0 <= off ->
  let lines := add_lines size offs in
  exists k, (k < length lines)%nat /\
    unpack lines off = (Z.of_nat k + 1, off - nth k lines 0 + 1) /\
    nth k lines 0 <= off /\ (forall q, (k < q < length lines)%nat -> off < nth q lines 0).
Proof. exact unpack_correct_reachable. Qed.
Print Assumptions C16_unpack_correct_reachable.

(* the nearest-lower lookup of the source map at run time (CompiledFunction.SourcePos) *)
Theorem C16_source_pos_spec :
  forall m ip,
  (0 <= ip /\ exists k, 0 <= k <= ip /\ sm_get m k = Some (source_pos m ip) /\
                        forall j, k < j <= ip -> sm_get m j = None) \/
  (source_pos m ip = 0 /\ forall j, 0 <= j <= ip -> sm_get m j = None).
Proof. exact source_pos_spec. Qed.
Print Assumptions C16_source_pos_spec.

Example C16_table :
  map (source_pos [(0, 5); (3, 9); (7, 12)]) [-1; 0; 2; 3; 6; 7; 100] = [0; 5; 5; 9; 9; 12; 12] /\
  source_pos [(2, 9)] 1 = 0 /\
  add_lines 40 [16; 31; 31; 7; 33; 40; 39] = [0; 16; 31; 33; 39] /\
  file_of [(1, 10); (12, 0); (13, 5)] 12 = Some 1%nat /\ file_of [(1, 10); (12, 0); (13, 5)] 19 = None /\
  file_of [(1, 10); (12, 0); (13, 5)] 1 = Some 0%nat /\ file_of [(1, 10); (12, 0); (13, 5)] 0 = None /\
  unpack [0; 16; 31; 33; 49; 62; 73; 75; 76; 87] 51 = (5, 3) /\
  unpack (shift_lines 3 [0; 16; 31]) (20 + 3) = (5, 5) /\ unpack [0; 16; 31] 20 = (2, 5).
Proof. vm_compute. repeat split; reflexivity. Qed.

(* Property C17: the json module produces and accepts exactly standard JSON.
   Status: PARTIAL.  Proved over a model of encodeState.string (string escaping incl. the UTF-8
   decoder, HTML escaping, U+2028/9, invalid bytes), compared byte for byte with Marshal on every
   run: for every byte string and both escaping modes the output is exactly one well-formed JSON
   string token, hence a valid JSON document (marshal_string_json_valid).
   The recogniser json_valid (the executable statement of the RFC 8259 grammar) is run on every
   real Marshal output and compared with encoding/json's Valid on generated documents.
   Marshal of plain values, Unmarshal, Valid, Compact and Indent are decided by differential
   execution against Go's encoding/json.
   KNOWN FINDING D17 (recorded, not repairable without editing the repository's own test):
   an object without JSON representation inside a value is encoded as nothing. *)
From Coq Require Import List ZArith.
From Ugo Require Import Json.Json Json.JsonProofs.
Import ListNotations.
Local Open Scope Z_scope.

Theorem C17_string_token_valid :
  forall s html rest, Forall (fun b => 0 <= b < 256) s ->
  exists body, encode_string s html = 34 :: body /\ string_body (body ++ rest) = Some rest.
Proof. exact encode_string_valid. Qed.
Print Assumptions C17_string_token_valid.

Theorem C17_marshal_string_valid_partial :
  forall s html, Forall (fun b => 0 <= b < 256) s -> json_valid (encode_string s html) = true.
Proof. exact marshal_string_json_valid. Qed.
Print Assumptions C17_marshal_string_valid_partial.

(* the malformed document of finding D17 is rejected by the recogniser, standard documents are accepted *)
Example C17_recogniser :
  json_valid [123; 34; 97; 34; 58; 44; 34; 98; 34; 58; 49; 125] = false /\            (* {"a":,"b":1} *)
  json_valid [123; 34; 97; 34; 58; 91; 49; 44; 50; 46; 53; 101; 43; 51; 44; 110; 117; 108; 108; 93; 125] = true /\  (* {"a":[1,2.5e+3,null]} *)
  json_valid [48; 49] = false /\ json_valid [34; 92; 120; 34] = false /\ json_valid [] = false /\
  encode_string [8; 34; 60; 255] true = [34; 92; 98; 92; 34; 92; 117; 48; 48; 51; 99; 92; 117; 102; 102; 102; 100; 34].
Proof. vm_compute. repeat split; reflexivity. Qed.

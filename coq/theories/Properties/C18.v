(* Property C18: decoding malformed bytecode returns an error, never a panic.
   The decoder model (Codec/Obj.v) returns GoPanic wherever the Go code would panic: slice
   expressions out of range, make with a bad size, failed type assertions, toVarint on an
   empty slice.  Theorem: for every byte string and every fuel the object decoder does not
   panic.  The model is tied to the implementation by decoding the same mutated inputs on
   both sides (outcome class and value).  The Bytecode container / file set decoders and the
   allocation bound are decided by exhaustive single-byte corruption and truncation of real
   encodings under recover with allocation measurement (observed, not proved). *)
From Coq Require Import List ZArith.
From Ugo Require Import Base.Res Codec.Obj Codec.ObjProofs Byte.V1Conv.
Import ListNotations.
Local Open Scope Z_scope.

Theorem C18_decode_object_no_panic : forall fuel r, is_panic (decode_object fuel r) = false.
Proof. exact decode_object_no_panic. Qed.
Print Assumptions C18_decode_object_no_panic.

Theorem C18_decode_no_panic : forall r, is_panic (decode r) = false.
Proof. exact decode_no_panic. Qed.
Print Assumptions C18_decode_no_panic.

(* every size the decoder slices by has been checked against the data *)
Theorem C18_sized_payload_no_panic : forall data, is_panic (dec_sized_payload data) = false.
Proof. exact dec_sized_payload_no_panic. Qed.
Print Assumptions C18_sized_payload_no_panic.

(* non-vacuity: hostile inputs of the kinds that used to panic *)
Example C18_hostile_inputs :
  (* string with a size larger than the data *)
  (exists e, decode [7; 1; 126] = Err e) /\
  (* array announcing 2^62 elements *)
  (exists e, decode [9; 10; 9; 128; 128; 128; 128; 128; 128; 128; 128; 64; 0] = Err e) /\
  (* compiled function whose instructions field holds an int *)
  (exists e, decode [12; 1; 6; 2; 3; 1; 2] = Err e) /\
  (* version 1 instruction stream with an unknown opcode / truncated operand *)
  (exists e, conv_comp_func [200] [] = Err e) /\ (exists e, conv_comp_func [12; 0] [] = Err e).
Proof. vm_compute. repeat split; eexists; reflexivity. Qed.

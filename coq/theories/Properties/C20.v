(* Property C20: values cross the Go boundary without change.
   Statements only; every proof is `exact <lemma>`. *)
From Coq Require Import List ZArith String Floats.SpecFloat.
From Ugo Require Import Base.Res Base.GoFloat Value.PValue Conv.GoValue Conv.ConvProofs.
Import ListNotations.

(* uGO -> Go -> uGO is the identity on plain values, arbitrarily nested. *)
Theorem C20_to_object_to_interface :
  forall v, plain v = true -> to_object (to_interface v) = Ok v.
Proof. exact to_object_to_interface. Qed.
Print Assumptions C20_to_object_to_interface.

(* Go -> uGO -> Go is the identity on canonical Go values, nil and empty
   containers being interchangeable (geq). *)
Theorem C20_to_interface_to_object :
  forall g, canonical g = true ->
  exists v, to_object g = Ok v /\ plain v = true /\ geq (to_interface v) g.
Proof. exact to_interface_to_object. Qed.
Print Assumptions C20_to_interface_to_object.

(* The alternative conversion inverts ToInterface on Char-free values, and the
   documented exception is exactly Char -> Int. *)
Theorem C20_alt_roundtrip :
  forall v, plain v = true -> char_free v = true -> to_object_alt (to_interface v) = Ok v.
Proof. exact alt_roundtrip. Qed.
Print Assumptions C20_alt_roundtrip.

Theorem C20_alt_char_is_int : forall z, to_object_alt (to_interface (PChar z)) = Ok (PInt z).
Proof. exact alt_char_is_int. Qed.
Print Assumptions C20_alt_char_is_int.

(* Every supported integer width converts to the uGO number with the same value. *)
Theorem C20_widths_alt :
  forall g z v, go_int_val g = Some z -> to_object_alt g = Ok v -> p_int_val v = Some z.
Proof. exact widths_alt. Qed.
Print Assumptions C20_widths_alt.

Theorem C20_widths_std :
  forall g z v, go_int_val g = Some z -> to_object g = Ok v -> p_int_val v = Some z.
Proof. exact widths_std. Qed.
Print Assumptions C20_widths_std.

(* float32 -> Float keeps the value exactly (finite values as dyadic rationals;
   infinities, NaN and zeros unchanged). *)
Theorem C20_float32_exact :
  forall f a b, sf_dyadic f = Some a -> sf_dyadic (widen32 f) = Some b -> dy_eq b a.
Proof. exact widen32_exact. Qed.
Print Assumptions C20_float32_exact.

Theorem C20_float32_special : forall f, sf_dyadic f = None -> widen32 f = f.
Proof. exact widen32_special. Qed.
Print Assumptions C20_float32_special.

(* Neither direction panics; unsupported types are errors. *)
Theorem C20_convert_no_panic : forall alt g, is_panic (to_object_gen alt g) = false.
Proof. exact convert_no_panic. Qed.
Print Assumptions C20_convert_no_panic.

Theorem C20_unsupported_is_error :
  forall tag, exists e, to_object (GOther tag) = Err e /\ to_object_alt (GOther tag) = Err e.
Proof. exact unsupported_is_error. Qed.
Print Assumptions C20_unsupported_is_error.

(* Non-vacuity: a nested plain value and a nested canonical Go value. *)
Example C20_plain_example :
  plain (PMap [(bs "k", PArr [PInt 1; PChar 97; PBytes []; PMap []; PFloat S754_nan])]) = true.
Proof. reflexivity. Qed.
Example C20_canonical_example :
  canonical (GMapAny false [(bs "k", GSliceAny true []); (bs "j", GBytes None)]) = true.
Proof. reflexivity. Qed.
Example C20_width_example : go_int_val (GInt8 (-128)) = Some (-128)%Z /\ to_object_alt (GInt8 (-128)) = Ok (PInt (-128)).
Proof. split; reflexivity. Qed.

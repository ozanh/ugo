(* The operators of the interpreter Sem agree with the operator model of C15 (Value/Ops.v, which
   follows numeric.go / objects.go and is compared with the implementation exhaustively) on the
   values the fragment uses. *)
From Coq Require Import ZArith.
From Ugo Require Import Base.Res Base.GoInt Value.PValue Value.Ops Sem.Sem.
Local Open Scope Z_scope.

(* the values both sides have; strings, arrays and functions have no image, and no theorem here speaks of them *)
Definition pv (v : sem_value) : option pvalue :=
  match v with VInt z => Some (PInt z) | VBool b => Some (PBool b) | VUndef => Some PUndef | _ => None end.

Definition tok_of (op : sem_bop) : option tok :=
  match op with OBAdd => Some TAdd | OBSub => Some TSub | OBMul => Some TMul | OBLt => Some TLess | OBLe => Some TLessEq | _ => None end.

Theorem sem_binop_int_agrees op t x y r :
  tok_of op = Some t -> sem_binop op (VInt x) (VInt y) = Some r ->
  exists p, pv r = Some p /\ binop t (PInt x) (PInt y) = Ok p.
Proof.
  destruct op; cbn [tok_of]; intros Ht Hr; inversion Ht; subst; cbn [sem_binop] in Hr; inversion Hr; subst;
    eexists; split; reflexivity.
Qed.

Theorem sem_eq_agrees x y :
  sem_binop OBEq (VInt x) (VInt y) = Some (VBool (x =? y)) /\ vm_equal (PInt x) (PInt y) = PBool (x =? y) /\
  sem_binop OBNe (VInt x) (VInt y) = Some (VBool (negb (x =? y))) /\ vm_not_equal (PInt x) (PInt y) = PBool (negb (x =? y)).
Proof. repeat split; reflexivity. Qed.

Theorem sem_falsy_agrees v p s : pv v = Some p -> is_falsy p = Some (sem_falsy v s).
Proof. destruct v; cbn [pv]; intros H; inversion H; subst; reflexivity. Qed.

Theorem sem_neg_agrees x : unop TSub (PInt x) = Ok (PInt (i64 (- x))).
Proof. reflexivity. Qed.

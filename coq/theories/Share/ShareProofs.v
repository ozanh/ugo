(* Interleaving: a scheduled step changes the private state of one VM only, so each VM ends where it
   ends alone.  Exposure: on validated code the abstract stack refers to a shared value only inside
   the LOADMODULE / JUMPFALSY / STOREMODULE pattern (Inv); one step keeps that (Inv_step). *)
From Coq Require Import List ZArith Bool.
From Ugo Require Import Share.Share.
Import ListNotations.

Section Interleaving.
  Variables (Shared Priv : Type).
  Variable step : Shared -> Priv -> Priv.

  Lemma nth_error_update_same {A} (l : list A) i x y : nth_error l i = Some y -> nth_error (update l i x) i = Some x.
  Proof. revert i. induction l as [|h t IH]; intros [|i] H; simpl in *; try discriminate; auto. Qed.

  Lemma nth_error_update_other {A} (l : list A) i j x : i <> j -> nth_error (update l i x) j = nth_error l j.
  Proof.
    revert i j. induction l as [|h t IH]; intros [|i] [|j] H; simpl; try reflexivity; try congruence.
    apply IH. congruence.
  Qed.

  Fixpoint count (i : nat) (sched : list nat) : nat :=
    match sched with [] => 0 | j :: r => (if Nat.eqb i j then 1 else 0) + count i r end.

  Lemma iter_step_comm n f (p : Priv) : iter Priv n f (f p) = f (iter Priv n f p).
  Proof. revert p. induction n as [|n IH]; intros p; simpl; [reflexivity|]. rewrite IH. reflexivity. Qed.

  Lemma sched_step_nth sh privs j i p :
    nth_error privs i = Some p ->
    nth_error (sched_step Shared Priv step sh privs j) i = Some (if Nat.eqb i j then step sh p else p).
  Proof.
    intros Hp. unfold sched_step. destruct (Nat.eqb_spec i j) as [->|Hne].
    - rewrite Hp. eapply nth_error_update_same. exact Hp.
    - destruct (nth_error privs j); [rewrite nth_error_update_other by congruence|]; exact Hp.
  Qed.

  (* under every schedule VM i ends in the state it reaches alone after as many steps as the
     schedule gave it: no schedule of the other VMs is observable *)
  Theorem interleave_independent sh sched : forall privs i p,
    nth_error privs i = Some p ->
    nth_error (run_sched Shared Priv step sh privs sched) i = Some (iter Priv (count i sched) (step sh) p).
  Proof.
    induction sched as [|j r IH]; intros privs i p Hp; [exact Hp|].
    change (run_sched Shared Priv step sh privs (j :: r))
      with (run_sched Shared Priv step sh (sched_step Shared Priv step sh privs j) r).
    rewrite (IH _ _ _ (sched_step_nth sh privs j i p Hp)). cbn [count].
    destruct (Nat.eqb i j); reflexivity.
  Qed.
End Interleaving.

Lemma share_ok_fn_nth {consts l k i} :
  share_ok_fn consts l = true -> nth_error l k = Some i -> instr_ok consts i (skipn (S k) l) = true.
Proof.
  revert k. induction l as [|h t IH]; intros [|k] H Hn; simpl in *; try discriminate;
    apply andb_true_iff in H as [H1 H2].
  - inversion Hn; subst. exact H1.
  - apply IH; assumption.
Qed.

Lemma skipn_cons {A} (l : list A) k a r :
  skipn k l = a :: r -> nth_error l k = Some a /\ skipn (S k) l = r.
Proof.
  revert l. induction k as [|k IH]; intros [|h t] H; try discriminate.
  - injection H as -> ->. auto.
  - exact (IH t H).
Qed.

Definition at_jump (l : list pinstr) (k : nat) : Prop :=
  exists j t, nth_error l k = Some j /\ pi_ins j = SJumpFalsy t.
Definition at_store (l : list pinstr) (k : nat) : Prop :=
  exists s m, nth_error l k = Some s /\ pi_ins s = SStoreModule m.

Lemma import_pattern {consts l k i c m} :
  share_ok_fn consts l = true -> nth_error l k = Some i -> pi_ins i = SLoadModule c m ->
  is_shared_mutable (kind_of consts c) = true -> at_jump l (S k) /\ at_store l (S (S k)).
Proof.
  intros Hok Hn E K. pose proof (share_ok_fn_nth Hok Hn) as Hi. unfold instr_ok in Hi.
  rewrite E in Hi. destruct (kind_of consts c); try discriminate.
  destruct (skipn (S k) l) as [|j [|s more]] eqn:Esk; try discriminate.
  apply skipn_cons in Esk as [Hj Esk]. apply skipn_cons in Esk as [Hs _].
  destruct (pi_ins j) eqn:Ej; try discriminate. destruct (pi_ins s) eqn:Es; try discriminate.
  split; [exists j | exists s]; eauto.
Qed.

(* inside the import pattern the flag above the shared value is `true`: a LOADMODULE that misses pushes `true` over
   the shared value (one that hits pushes `false` over a private copy), so the JUMPFALSY can only fall through *)
Definition Inv (l : list pinstr) (k : nat) (st : list taint) : Prop :=
  clean st \/
  (exists r, st = TBool true :: TShared :: r /\ clean r /\ at_jump l k /\ at_store l (S k)) \/
  (exists r, st = TShared :: r /\ clean r /\ at_store l k).

Lemma clean_cons t st : t <> TShared -> clean st -> clean (t :: st).
Proof. intros H1 H2 [H|H]; [congruence | exact (H2 H)]. Qed.

Lemma clean_tail t st : clean (t :: st) -> clean st.
Proof. intros H Hin. apply H. right. exact Hin. Qed.

Lemma clean_from st st' : clean st -> (forall t, In t st' -> t = TPriv \/ (exists b, t = TBool b) \/ In t st) -> clean st'.
Proof. intros Hc H Hin. destruct (H _ Hin) as [E|[[b E]|E]]; try discriminate. exact (Hc E). Qed.

Lemma astep_jump_true {consts i t st st' tgt} :
  pi_ins i = SJumpFalsy t -> astep consts i (TBool true :: st) st' tgt -> st' = st /\ tgt = None.
Proof. intros E Hs. inversion Hs; subst; try congruence. auto. Qed.

Lemma astep_store {consts i m v st st' tgt} :
  pi_ins i = SStoreModule m -> astep consts i (v :: st) st' tgt -> st' = TPriv :: st /\ tgt = None.
Proof. intros E Hs. inversion Hs; subst; try congruence. auto. Qed.

(* tgt = None and pi_ins i <> SOther: of the rules of reach only RSeq is then left, which goes on at S k *)
Lemma Inv_step {consts l k i st st' tgt} :
  share_ok_fn consts l = true -> nth_error l k = Some i -> Inv l k st -> astep consts i st st' tgt ->
  clean st' \/ (tgt = None /\ pi_ins i <> SOther /\ Inv l (S k) st').
Proof.
  intros Hok Hn HI Hs.
  destruct HI as [Hc | [(r & -> & Hr & (j & t & Hnj & Hj) & Hst) | (r & -> & Hr & s & m & Hns & Hsm)]].
  - destruct Hs as [i c st E | i c st E | i c st st' E Hsub | i c m st E | i c m st E
                    | i t b st E Hb | i t b st E Hb | i m v st E | i st st' tgt E Hsub].
    + (* AConstant *) left. apply clean_cons; [|exact Hc].
      pose proof (share_ok_fn_nth Hok Hn) as Hi. unfold instr_ok in Hi. rewrite E in Hi.
      unfold taint_of. destruct (is_shared_mutable (kind_of consts c)); discriminate.
    + (* AClosure *) left. apply clean_cons; [discriminate | exact Hc].
    + (* AGlobalKey *) left. eapply clean_from; [exact Hc|]. intros t Ht. destruct (Hsub _ Ht); auto.
    + (* ALoadMiss *) unfold taint_of. destruct (is_shared_mutable (kind_of consts c)) eqn:K.
      * destruct (import_pattern Hok Hn E K) as [Hj Hst].
        right. rewrite E. split; [reflexivity|]. split; [discriminate|].
        right. left. exists st. auto.
      * left. apply clean_cons; [discriminate|]. apply clean_cons; [discriminate | exact Hc].
    + (* ALoadHit *) left. apply clean_cons; [discriminate|]. apply clean_cons; [discriminate | exact Hc].
    + (* AJumpTaken *) left. eapply clean_tail. exact Hc.
    + (* AJumpNot *) left. eapply clean_tail. exact Hc.
    + (* AStore *) left. apply clean_cons; [discriminate|]. eapply clean_tail. exact Hc.
    + (* AOther *) left. eapply clean_from; [exact Hc | exact Hsub].
  - rewrite Hnj in Hn. injection Hn as <-. destruct (astep_jump_true Hj Hs) as [-> ->].
    right. split; [reflexivity|]. split; [congruence|]. right. right. exists r. auto.
  - rewrite Hns in Hn. injection Hn as <-. destruct (astep_store Hsm Hs) as [-> _].
    left. apply clean_cons; [discriminate | exact Hr].
Qed.

Theorem reach_inv consts fns :
  share_ok consts fns = true ->
  forall l k st, reach consts fns l k st -> In l fns /\ Inv l k st.
Proof.
  intros Hok l k st R. unfold share_ok in Hok. rewrite forallb_forall in Hok.
  induction R as [l k st Hin Hc | l k st i st' R [Hin IH] Hn Hs
                  | l k st i st' t k' j R [Hin IH] Hn _ Hs _ _
                  | l k st i st' tgt l' k' R [Hin IH] Hn Ho Hs Hin'].
  1: split; [exact Hin | left; exact Hc].
  all: pose proof (Inv_step (Hok _ Hin) Hn IH Hs) as HS.
  - split; [exact Hin|]. destruct HS as [Hc | (_ & _ & HI)]; [left; exact Hc | exact HI].
  - split; [exact Hin|]. left. destruct HS as [Hc | (E & _)]; [exact Hc | discriminate E].
  - split; [exact Hin'|]. left. destruct HS as [Hc | (_ & E & _)]; [exact Hc | contradiction].
Qed.

(* on validated bytecode no instruction other than the JUMPFALSY / STOREMODULE of the import
   pattern ever runs while the VM stack refers to a shared mutable constant: scripts only reach
   the private copy *)
Theorem share_ok_sound consts fns :
  share_ok consts fns = true ->
  forall l k st i, reach consts fns l k st -> nth_error l k = Some i -> ~ exposed i st.
Proof.
  intros Hok l k st i R Hn [Hin Hx].
  destruct (reach_inv consts fns Hok l k st R)
    as [_ [Hc | [(r & _ & _ & (j & t & Hnj & Hj) & _) | (r & _ & _ & s & m & Hns & Hsm)]]].
  - exact (Hc Hin).
  - rewrite Hnj in Hn. injection Hn as <-. rewrite Hj in Hx. exact Hx.
  - rewrite Hns in Hn. injection Hn as <-. rewrite Hsm in Hx. exact Hx.
Qed.

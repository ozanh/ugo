(* Property C03: the emit-and-patch compiler of Skel.v and the declarative compiler of SkelDecl.v
   produce the same code for every well-formed program. *)
From Coq Require Import List ZArith Bool Lia.
From Ugo Require Import Skel.Skel Skel.SkelDecl Skel.SkelSim.
Import ListNotations.
Local Open Scope Z_scope.

(* positions of the jumps emitted for break (isb = true) / continue (isb = false) statements that
   belong to the innermost enclosing loop, in compilation order *)
Fixpoint jpos (isb : bool) (p : nat) (ti : Z) (lt : option Z) (s : skel) : list nat :=
  let jposb := fix jposb (isb' : bool) (p' : nat) (ti' : Z) (lt' : option Z) (l : list skel) {struct l} : list nat :=
    match l with [] => [] | x :: xs => jpos isb' p' ti' lt' x ++ jposb isb' (p' + sz ti' lt' x)%nat ti' lt' xs end in
  match s with
  | SBreak => if isb then match lt with Some l => [if l =? ti then p else S p] | None => [] end else []
  | SContinue => if isb then [] else match lt with Some l => [if l =? ti then p else S p] | None => [] end
  | STry body catch fin =>
      let ti' := ti + 1 in
      let pafter := (S p + szb ti' lt body)%nat in
      let fpos := match catch with Some (_, cb) => (pafter + 2 + szb ti' lt cb)%nat | None => pafter end in
      jposb isb (S p) ti' lt body
      ++ match catch with Some (_, cb) => jposb isb (pafter + 2)%nat ti' lt cb | None => [] end
      ++ match fin with Some fb => jposb isb (S fpos) ti' lt fb | None => [] end
  | _ => []
  end.
Fixpoint jposb (isb : bool) (p : nat) (ti : Z) (lt : option Z) (l : list skel) : list nat :=
  match l with [] => [] | x :: xs => jpos isb p ti lt x ++ jposb isb (p + sz ti lt x)%nat ti lt xs end.

Lemma jpos_try isb p ti lt body catch fin :
  jpos isb p ti lt (STry body catch fin) =
  let ti' := ti + 1 in
  let pafter := (S p + szb ti' lt body)%nat in
  let fpos := match catch with Some (_, cb) => (pafter + 2 + szb ti' lt cb)%nat | None => pafter end in
  jposb isb (S p) ti' lt body
  ++ match catch with Some (_, cb) => jposb isb (pafter + 2)%nat ti' lt cb | None => [] end
  ++ match fin with Some fb => jposb isb (S fpos) ti' lt fb | None => [] end.
Proof. reflexivity. Qed.

(* lists built with ++ and :: in right-nested normal form *)
Ltac flat := repeat (rewrite <- ?app_assoc; cbn [app]).
(* goals about positions: the lengths of compiled code are rewritten to sizes (sz, szb), lia does the rest *)
Ltac len := repeat (progress (rewrite ?app_length, ?dcb_length, ?dcomp_length; cbn [length lt_of])); lia.

Lemma set_nth_at {A} n (a : list A) x y b : length a = n -> set_nth n y (a ++ x :: b) = a ++ y :: b.
Proof. intros <-. induction a as [|z a IH]; cbn [length app set_nth]; [reflexivity | rewrite IH; reflexivity]. Qed.

Definition patch_list (cd : list instr) (ps : list nat) (i : instr) : list instr := fold_left (fun cd p => set_nth p i cd) ps cd.

(* patching the positions ps of the code a, placed at position p of any surrounding code, with
   IJump t gives a'; ps is in compilation order, the compiler keeps its lists newest first: hence rev *)
Definition patches (t p : nat) (a a' : list instr) (ps : list nat) : Prop := forall pre suf, length pre = p ->
  patch_list (pre ++ a ++ suf) (rev ps) (IJump t) = pre ++ a' ++ suf.

Lemma patch_list_app cd a b i : patch_list cd (a ++ b) i = patch_list (patch_list cd a i) b i.
Proof. apply fold_left_app. Qed.

Lemma patches_nil t p a : patches t p a a [].
Proof. intros pre suf _. reflexivity. Qed.
Lemma patches_app t p a a' ps b b' qs :
  patches t p a a' ps -> patches t (p + length a) b b' qs -> patches t p (a ++ b) (a' ++ b') (ps ++ qs).
Proof.
  intros Ha Hb pre suf Hp. rewrite rev_app_distr, patch_list_app, <- !app_assoc, (app_assoc pre a).
  rewrite (Hb (pre ++ a) suf) by (rewrite app_length; lia). rewrite <- app_assoc. apply (Ha pre (b' ++ suf) Hp).
Qed.
Lemma patches_app_l t p a a' ps b : patches t p a a' ps -> patches t p (a ++ b) (a' ++ b) ps.
Proof. intro H. rewrite <- (app_nil_r ps). apply patches_app; [exact H | apply patches_nil]. Qed.
Lemma patches_at t p q a a' ps : p = q -> patches t q a a' ps -> patches t p a a' ps.
Proof. intros ->. exact (fun H => H). Qed.
Lemma patches_cons t p i a a' ps : patches t (S p) a a' ps -> patches t p (i :: a) (i :: a') ps.
Proof. intro H. apply (patches_app t p [i] [i] [] a a' ps (patches_nil t p [i])). rewrite Nat.add_1_r. exact H. Qed.

(* the break (isb) or continue target of the loop context set to t: patching the recorded jumps of a statement
   is compiling it with the real target (retarget_ok) *)
Definition retarget (isb : bool) (lp : lctx) (t : nat) : lctx :=
  match lp with
  | Some (l, b, c) => if isb then Some (l, t, c) else Some (l, b, t)
  | None => None
  end.
Lemma lt_of_retarget isb lp t : lt_of (retarget isb lp t) = lt_of lp.
Proof. destruct lp as [[[l b] c]|]; [destruct isb|]; reflexivity. Qed.

Definition retarget_ok (s : skel) : Prop := forall isb p ti k lp t,
  patches t p (dcomp p ti k lp s) (dcomp p ti k (retarget isb lp t) s) (jpos isb p ti (lt_of lp) s).
Definition retarget_block_ok (l : list skel) : Prop := forall isb p ti k lp t,
  patches t p (dcb p ti k lp l) (dcb p ti k (retarget isb lp t) l) (jposb isb p ti (lt_of lp) l).

Lemma retarget_jump t p ti (l : Z) tgt :
  patches t p ((if l =? ti then [] else [IFinalizer (Z.to_nat (l + 1))]) ++ [IJump tgt])
              ((if l =? ti then [] else [IFinalizer (Z.to_nat (l + 1))]) ++ [IJump t]) [if l =? ti then p else S p].
Proof.
  destruct (l =? ti); [| apply patches_cons]; intros pre suf Hp; apply (set_nth_at _ pre); exact Hp.
Qed.

Lemma retarget_try body catch fin : retarget_block_ok body -> optP retarget_block_ok (option_map snd catch) ->
  optP retarget_block_ok fin -> retarget_ok (STry body catch fin).
Proof.
  intros Hb Hc Hf isb p ti k lp t. rewrite jpos_try, !dcomp_try. cbv zeta. rewrite !lt_of_retarget.
  apply patches_cons, patches_app; [apply Hb|]. rewrite dcb_length.
  apply patches_app.
  - destruct catch as [[named cb]|]; [| apply patches_nil].
    do 2 apply patches_cons. eapply patches_at; [| apply Hc]. lia.
  - apply patches_cons, patches_app_l. destruct fin as [fb|]; [| apply patches_nil].
    eapply patches_at; [| apply Hf]. destruct catch as [[named cb]|]; len.
Qed.

Lemma retarget_cons x xs : retarget_ok x -> retarget_block_ok xs -> retarget_block_ok (x :: xs).
Proof.
  intros Hx Hxs isb p ti k lp t. cbn [dcb jposb]. rewrite lt_of_retarget.
  apply patches_app; [apply Hx|]. rewrite dcomp_length. apply Hxs.
Qed.

Theorem retarget_block_all : forall l, retarget_block_ok l.
Proof.
  apply (block_ind2 retarget_ok retarget_block_ok); try (intros; intros isb p ti k lp t; apply patches_nil).
  (* left are the statements that can hold a jump of the enclosing loop *)
  1-2: (* SBreak, SContinue *) intros isb p ti k [[[l b] c]|] t; destruct isb; try apply patches_nil; apply retarget_jump.
  - apply retarget_try.
  - apply retarget_cons.
Qed.

Definition mkc cd ti lps nlp bs cs er : cstate :=
  {| code := cd; try_index := ti; loops := lps; next_loop := nlp; breaks := bs; conts := cs; cerr := er |}.
Definition lt_c (c : cstate) : option Z := match loops c with l :: _ => Some (lc_last_try l) | [] => None end.
(* the loop context the compiler is in, as dcomp takes it, the targets of break and continue still 0 *)
Definition lp0 (c : cstate) : lctx := match loops c with l :: _ => Some (lc_last_try l, 0%nat, 0%nat) | [] => None end.
(* the positions ps added to those recorded for the innermost open loop, as add_break / add_cont do one by one *)
Definition push (ps : list nat) (bs : list (list nat)) : list (list nat) := match bs with b :: r => (ps ++ b) :: r | [] => [] end.

Lemma push_nil bs : push [] bs = bs. Proof. destruct bs; reflexivity. Qed.
Lemma push_push a b bs : push a (push b bs) = push (a ++ b) bs.
Proof. destruct bs; cbn [push]; [reflexivity | rewrite app_assoc; reflexivity]. Qed.
Lemma lt_of_lp0 c : lt_of (lp0 c) = lt_c c.
Proof. unfold lp0, lt_c. destruct (loops c); reflexivity. Qed.

(* projections and updates of literal states *)
Ltac crec := cbn [mkc emit with_try patch fst snd code try_index loops next_loop breaks conts cerr].

(* what compile does to a state: it appends the declarative code (break / continue targets still 0)
   and records the positions of the jumps to patch.  The position p and the loop context lp are
   variables tied to the state by equations, so that the positions of the parts match syntactically. *)
Definition comp_ok (nf : nat) (s : skel) : Prop := forall p lp cd ti lps k bs cs er,
  length cd = p -> lp0 (mkc cd ti lps k bs cs er) = lp -> wfs (is_some lp) nf s = true ->
  compile s (mkc cd ti lps k bs cs er) =
  mkc (cd ++ dcomp p ti k lp s) ti lps (k + nl s)
      (push (rev (jpos true p ti (lt_of lp) s)) bs) (push (rev (jpos false p ti (lt_of lp) s)) cs) er.
Definition compb_ok (nf : nat) (l : list skel) : Prop := forall p lp cd ti lps k bs cs er,
  length cd = p -> lp0 (mkc cd ti lps k bs cs er) = lp -> wfb (is_some lp) nf l = true ->
  compile_block l (mkc cd ti lps k bs cs er) =
  mkc (cd ++ dcb p ti k lp l) ti lps (k + nlb l)
      (push (rev (jposb true p ti (lt_of lp) l)) bs) (push (rev (jposb false p ti (lt_of lp) l)) cs) er.

(* The compilation of a try statement from the states c1, c2, c3 that its blocks produce and the
   positions at which they end.  They are variables because compile applied to a state that contains
   another compile_block is a term that grows sevenfold per nesting level. *)
Lemma compile_try {body catch fb c c1 c2 c3} p pa fp :
  length (code c) = p ->
  compile_block body (fst (emit (with_try c (try_index c + 1)) (ISetupTry 0 0))) = c1 -> length (code c1) = pa ->
  match catch with
  | Some (named, cb) => compile_block cb (fst (emit (fst (emit c1 (IJump 0))) (ISetupCatch named)))
  | None => c1
  end = c2 -> length (code c2) = fp ->
  compile_block fb (fst (emit c2 ISetupFinally)) = c3 ->
  compile (STry body catch (Some fb)) c =
  let c4 := patch (with_try c3 (try_index c3 - 1)) p (ISetupTry (if catch then S pa else 0) fp) in
  fst (emit (if catch then patch c4 pa (IJump fp) else c4) IThrow0).
Proof.
  (* the equations are still in the goal when compile is unfolded: crec brings them and the text of compile to one
     form, and each then replaces all copies of the result of its block at once *)
  intros Hp. cbn [compile]. fold compile_block. destruct catch as [[named cb]|]; crec; intros H1 Hpa H2 Hfp H3.
  - rewrite H1, H2, H3, last_length, Hp, Hpa, Hfp. reflexivity.
  - subst c2. rewrite H1, H3, Hp, Hfp. reflexivity.
Qed.

Lemma compile_try_nofin body catch c : compile (STry body catch None) c = compile (STry body catch (Some [])) c.
Proof. reflexivity. Qed.

Lemma comp_ok_try_catch nf body named cb fb : compb_ok nf body -> compb_ok nf cb -> compb_ok nf fb -> comp_ok nf (STry body (Some (named, cb)) (Some fb)).
Proof.
  intros Hb Hcb Hfb p lp cd ti lps k bs cs er Hp Hlp Hwf.
  rewrite wfs_try in Hwf. apply andb_true_iff in Hwf as [Hwf Hwfb]. apply andb_true_iff in Hwf as [Hwb Hwcb].
  remember (S p + szb (ti + 1) (lt_of lp) body)%nat as pa eqn:Epa. remember (pa + 2 + szb (ti + 1) (lt_of lp) cb)%nat as fp eqn:Efp.
  (* one entry per hypothesis of compile_try, in its order *)
  erewrite (compile_try (catch := Some (named, cb)) p pa fp);
    [| exact Hp
     | crec; apply (Hb (S p) lp); [len | exact Hlp | exact Hwb] | crec; len
     | crec; apply (Hcb (pa + 2)%nat lp); [len | exact Hlp | exact Hwcb] | crec; len
     | crec; apply (Hfb (S fp) lp); [len | exact Hlp | exact Hwfb]].
  crec. rewrite dcomp_try, !jpos_try, nl_try. cbv zeta. rewrite <- Epa, <- Efp.
  unfold mkc. f_equal.
  - flat. rewrite (set_nth_at p) by exact Hp.
    rewrite (app_comm_cons (dcb _ _ _ _ body)), app_assoc, (set_nth_at pa) by len.
    flat. reflexivity.
  - lia.
  - lia.
  - rewrite !push_push, !rev_app_distr, <- !app_assoc. reflexivity.
  - rewrite !push_push, !rev_app_distr, <- !app_assoc. reflexivity.
Qed.

Lemma comp_ok_try_nocatch nf body fb : compb_ok nf body -> compb_ok nf fb -> comp_ok nf (STry body None (Some fb)).
Proof.
  intros Hb Hfb p lp cd ti lps k bs cs er Hp Hlp Hwf.
  rewrite wfs_try in Hwf. apply andb_true_iff in Hwf as [Hwf Hwfb]. apply andb_true_iff in Hwf as [Hwb _].
  remember (S p + szb (ti + 1) (lt_of lp) body)%nat as pa eqn:Epa.
  erewrite (compile_try (catch := None) p pa pa);
    [| exact Hp
     | crec; apply (Hb (S p) lp); [len | exact Hlp | exact Hwb] | crec; len
     | reflexivity | crec; len
     | crec; apply (Hfb (S pa) lp); [len | exact Hlp | exact Hwfb]].
  crec. rewrite dcomp_try, !jpos_try, nl_try. cbv zeta. rewrite <- Epa, !Nat.add_0_r.
  unfold mkc. f_equal.
  - flat. rewrite (set_nth_at p) by exact Hp. flat. reflexivity.
  - lia.
  - lia.
  - rewrite !push_push, !rev_app_distr, <- !app_assoc. reflexivity.
  - rewrite !push_push, !rev_app_distr, <- !app_assoc. reflexivity.
Qed.

Lemma patch_jumps_spec ps : forall c t,
  patch_jumps c ps t = mkc (patch_list (code c) ps (IJump t)) (try_index c) (loops c) (next_loop c) (breaks c) (conts c) (cerr c).
Proof.
  induction ps as [|p ps IH]; intros c t; unfold patch_jumps in *; cbn [fold_left patch_list].
  - destruct c; reflexivity.
  - rewrite IH. unfold patch, patch_list. cbn [code try_index loops next_loop breaks conts cerr fold_left]. reflexivity.
Qed.

Lemma compile_loop {body c c1} p post :
  let k := next_loop c in
  length (code c) = p ->
  compile_block body (mkc ((code c ++ [ILoopInit k]) ++ [ILoopTest k 0]) (try_index c)
                          ({| lc_last_try := try_index c; lc_id := k |} :: loops c) (S k) ([] :: breaks c) ([] :: conts c) (cerr c)) = c1 ->
  length (code c1) = post ->
  compile (SLoop body) c =
  mkc (patch_list (patch_list (set_nth (S p) (ILoopTest k (post + 2)) (code c1 ++ [ILoopIncr k; IJump (S p)]))
                              (hd [] (breaks c1)) (IJump (post + 2))) (hd [] (conts c1)) (IJump post))
      (try_index c1) (tl (loops c1)) (next_loop c1) (tl (breaks c1)) (tl (conts c1)) (cerr c1).
Proof.
  intros k Hp E Hpost. cbn [compile]. fold compile_block. fold k.
  (* the state c0 at the loop test stays a variable until E is used: the text has 148 copies of compile_block body c0 *)
  destruct (emit _ (ILoopTest k 0)) as [c0 test] eqn:Ee. do 2 rewrite patch_jumps_spec.
  revert Ee. crec. intros [= Ec Et]. unfold mkc in E. rewrite Ec in E. rewrite E, <- Et.
  rewrite !last_length, Hp, Hpost, <- app_assoc, Nat.add_comm. reflexivity.
Qed.

Lemma comp_ok_loop nf body : compb_ok nf body -> comp_ok nf (SLoop body).
Proof.
  intros Hb p lp cd ti lps k bs cs er Hp Hlp Hwf. rewrite wfs_loop in Hwf.
  remember (p + 2 + szb ti (Some ti) body)%nat as post eqn:Epost.
  erewrite (compile_loop p post);
    [| exact Hp
     | crec; apply (Hb (p + 2)%nat (Some (ti, 0%nat, 0%nat))); [len | reflexivity | exact Hwf] | crec; len].
  crec. cbn [hd tl push lt_of]. rewrite !app_nil_r.
  rewrite dcomp_loop, nl_loop. cbv zeta. rewrite <- Epost. cbn [jpos rev]. rewrite !push_nil.
  unfold mkc. f_equal; [| lia].
  rewrite <- !(app_assoc (cd ++ [ILoopInit k])). cbn [app]. rewrite (set_nth_at (S p)) by len.
  (* bring the code to the form pre ++ body ++ suf with length pre = p + 2, of which patches speaks *)
  flat. change (cd ++ ?a :: ?b :: ?X) with (cd ++ [a; b] ++ X). rewrite !(app_assoc cd).
  assert (Hpre : length (cd ++ [ILoopInit k; ILoopTest k (post + 2)]) = (p + 2)%nat) by len.
  rewrite (retarget_block_all body) with (isb := true) (lp := Some (ti, 0%nat, 0%nat)) (t := (post + 2)%nat) by exact Hpre.
  rewrite (retarget_block_all body) with (isb := false) (lp := Some (ti, (post + 2)%nat, 0%nat)) (t := post) by exact Hpre.
  flat. reflexivity.
Qed.

Lemma comp_ok_simple nf s i : (forall c, compile s c = fst (emit c i)) -> (forall p ti k lp, dcomp p ti k lp s = [i]) ->
  nl s = 0%nat -> (forall isb p ti lt, jpos isb p ti lt s = []) -> comp_ok nf s.
Proof.
  intros Hc Hd Hn Hj p lp cd ti lps k bs cs er _ _ _. rewrite Hc, Hd, Hn, !Hj. cbn [rev]. rewrite !push_nil, Nat.add_0_r. reflexivity.
Qed.

Lemma comp_ok_call nf f : comp_ok nf (SCall f).
Proof.
  intros p lp cd ti lps k bs cs er _ _ _. cbn [compile dcomp nl jpos rev]. crec. rewrite !push_nil, Nat.add_0_r, <- app_assoc. reflexivity.
Qed.

Lemma comp_ok_return nf a : comp_ok nf (SReturn a).
Proof.
  intros p lp cd ti lps k bs cs er _ _ _. cbn [compile dcomp nl jpos rev]. crec. rewrite !push_nil, Nat.add_0_r.
  destruct (-1 <? ti); crec; flat; reflexivity.
Qed.

Lemma comp_ok_jump nf (isb : bool) : comp_ok nf (if isb then SBreak else SContinue).
Proof.
  intros p lp cd ti lps k bs cs er Hp Hlp Hwf.
  destruct lps as [|[l id] lps]; cbn in Hlp; subst lp; [destruct isb; discriminate|].
  destruct isb; cbn [compile dcomp nl jpos lt_of rev app]; crec; cbn [lc_last_try]; rewrite push_nil, Nat.add_0_r;
    (destruct (l =? ti); unfold add_break, add_cont; crec; rewrite ?last_length, Hp; flat; reflexivity).
Qed.

Lemma compb_ok_nil nf : compb_ok nf [].
Proof.
  intros p lp cd ti lps k bs cs er _ _ _. cbn [compile_block dcb nlb jposb rev]. rewrite !push_nil, app_nil_r, Nat.add_0_r. reflexivity.
Qed.

Lemma compb_ok_cons nf x xs : comp_ok nf x -> compb_ok nf xs -> compb_ok nf (x :: xs).
Proof.
  intros Hx Hxs p lp cd ti lps k bs cs er Hp Hlp Hwf. cbn [wfb] in Hwf. apply andb_true_iff in Hwf as [Hwx Hwxs].
  cbn [compile_block dcb nlb jposb]. rewrite (Hx p lp) by assumption.
  rewrite (Hxs (p + sz ti (lt_of lp) x)%nat lp) by (try assumption; len).
  rewrite !push_push, <- !rev_app_distr, <- app_assoc, Nat.add_assoc. reflexivity.
Qed.

Theorem compb_all nf : forall l, compb_ok nf l.
Proof.
  apply (block_ind2 (comp_ok nf) (compb_ok nf)).
  - intro a. apply (comp_ok_simple nf (SLog a) (ILog a)); reflexivity.
  - apply (comp_ok_jump nf true).
  - apply (comp_ok_jump nf false).
  - apply comp_ok_return.
  - intro a. apply (comp_ok_simple nf (SThrow a) (IThrowUser a)); reflexivity.
  - apply (comp_ok_simple nf SFail IFail); reflexivity.
  - apply comp_ok_call.
  - apply comp_ok_loop.
  - intros body catch fin Hb Hc Hf.
    (* no finally part is an empty one for compile (compile_try_nofin), dcomp, sz, nl, jpos and wfs alike, by computation *)
    enough (Hgoal: comp_ok nf (STry body catch (Some (match fin with Some fb => fb | None => [] end)))) by (destruct fin; exact Hgoal).
    assert (Hf': compb_ok nf (match fin with Some fb => fb | None => [] end)) by (destruct fin; [exact Hf | apply compb_ok_nil]).
    destruct catch as [[named cb]|]; [apply comp_ok_try_catch | apply comp_ok_try_nocatch]; assumption.
  - apply compb_ok_nil.
  - apply compb_ok_cons.
Qed.

Lemma compile_fn_eq nf body : wfb false nf body = true -> compile_fn body = Some (dcompile_fn body).
Proof.
  intro Hwf. unfold compile_fn. change init_cstate with (mkc [] (-1) [] 0%nat [] [] false).
  rewrite (compb_all nf body 0%nat None) by (reflexivity || exact Hwf). reflexivity.
Qed.

Lemma compile_program_from_eq : forall p n, wf_program_from n p = true -> compile_program p = Some (dcompile_program p).
Proof.
  induction p as [|b p IH]; intros n H; [reflexivity|].
  cbn [wf_program_from] in H. apply andb_true_iff in H as [Hb Hp].
  cbn [compile_program dcompile_program map]. rewrite (compile_fn_eq n b Hb), (IH (S n) Hp). reflexivity.
Qed.

Theorem compile_program_eq p : wf_program p = true -> compile_program p = Some (dcompile_program p).
Proof. apply compile_program_from_eq. Qed.

Theorem simulation_patching p : wf_program p = true -> p <> [] ->
  exists fuel, match run_program fuel p with Some (Done l o) => sem_program p = Some (l, o) | _ => False end.
Proof.
  intros Hwf Hne. destruct (simulation p Hwf Hne) as [fuel H]. exists fuel.
  unfold run_program. rewrite (compile_program_eq p Hwf). exact H.
Qed.

(* C03: the specification [sem] in the forms SkelSim.v reads it in (sem_try_unfold, sem_loop_twice), the two
   theorems about the specification alone, and THROW 0 popping the handler of a completed try statement. *)
From Coq Require Import List.
From Ugo Require Import Skel.Skel.
Import ListNotations.

(* what the body and catch part of a try statement come to, the body having ended with o1 *)
Definition sem_catch (table : list fsem) (o1 : outcome) (catch : option (bool * list skel)) : fsem :=
  match o1, catch with
  | OThrow e, Some (named, cb) =>
      let '(lc, oc) := sem_block table cb in
      ((if named : bool then [ECaught e] else []) ++ lc, oc)
  | _, _ => ([], o1)
  end.
(* the outcome of a finally block overrides the pending one unless it is normal *)
Definition ovr (of o2 : outcome) : outcome := match of with ONormal => o2 | _ => of end.

Lemma sem_catch_none table o1 : sem_catch table o1 None = ([], o1).
Proof. destruct o1; reflexivity. Qed.
Lemma ovr_cases of o2 : (of = ONormal /\ ovr of o2 = o2) \/ (of <> ONormal /\ ovr of o2 = of).
Proof. destruct of; [left; split; reflexivity | right; split; [discriminate | reflexivity] ..]. Qed.

(* the local block function inside [sem] is [sem_block] *)
Lemma sem_try_unfold table body catch fin :
  sem table (STry body catch fin) =
  let '(l1, o1) := sem_block table body in
  let '(l2, o2) := sem_catch table o1 catch in
  match fin with
  | None => (l1 ++ l2, o2)
  | Some fb => let '(lf, of) := sem_block table fb in (l1 ++ l2 ++ lf, ovr of o2)
  end.
Proof. reflexivity. Qed.
Lemma sem_loop_unfold table body :
  sem table (SLoop body) =
  let '(l1, o1) := sem_block table body in
  match o1 with
  | ONormal | OContinue =>
      let '(l2, o2) := sem_block table body in
      (l1 ++ l2, match o2 with ONormal | OContinue | OBreak => ONormal | o => o end)
  | OBreak => (l1, ONormal)
  | o => (l1, o)
  end.
Proof. reflexivity. Qed.

Lemma sem_try_none table body catch : sem table (STry body catch None) = sem table (STry body catch (Some [])).
Proof.
  rewrite !sem_try_unfold. destruct (sem_block table body) as [l1 o1]. destruct (sem_catch table o1 catch) as [l2 o2].
  cbn [sem_block ovr]. rewrite app_nil_r. reflexivity.
Qed.

(* n more iterations of a loop; the language has loops of two *)
Fixpoint loop_sem (table : list fsem) (body : list skel) (n : nat) : fsem :=
  match n with
  | O => ([], ONormal)
  | S n' =>
      let '(l1, o1) := sem_block table body in
      match o1 with
      | ONormal | OContinue => let '(l2, o2) := loop_sem table body n' in (l1 ++ l2, o2)
      | OBreak => (l1, ONormal)
      | o => (l1, o)
      end
  end.
Lemma sem_loop_twice table body : sem table (SLoop body) = loop_sem table body 2.
Proof. rewrite sem_loop_unfold. cbn [loop_sem]. destruct (sem_block table body) as [l1 []]; rewrite ?app_nil_r; reflexivity. Qed.

(* Specification level: whatever the try body and the catch block do, the events of the
   finally block occur exactly once, after them, and the pending outcome survives a finally
   block that completes normally. *)
Theorem spec_finally_once table body catch fb :
  exists lpre opre lf of,
    sem_block table fb = (lf, of) /\
    sem table (STry body catch (Some fb)) =
      (lpre ++ lf, match of with ONormal => opre | _ => of end) /\
    sem table (STry body catch None) = (lpre, opre).
Proof.
  rewrite !sem_try_unfold.
  destruct (sem_block table body) as [l1 o1]. destruct (sem_catch table o1 catch) as [l2 o2].
  destruct (sem_block table fb) as [lf of].
  exists (l1 ++ l2), o2, lf, of. repeat split. rewrite app_assoc. reflexivity.
Qed.

(* a caught error is not raised again: the outcome of try/catch without finally is the
   outcome of the catch block *)
Theorem spec_caught_not_reraised table body named cb e l1 :
  sem_block table body = (l1, OThrow e) ->
  exists lc oc, sem_block table cb = (lc, oc) /\
    sem table (STry body (Some (named, cb)) None) =
      (l1 ++ (if named : bool then [ECaught e] else []) ++ lc, oc).
Proof.
  intros H. rewrite sem_try_unfold, H. cbn [sem_catch]. destruct (sem_block table cb) as [lc oc].
  exists lc, oc. split; reflexivity.
Qed.

Lemma last_handler_app hs h : last_handler (hs ++ [h]) = Some h.
Proof. unfold last_handler. rewrite map_app. apply last_last. Qed.

(* machine level: THROW 0 with nothing pending pops exactly the completed handler, so a
   completed try statement leaves the handler stack as it found it *)
Theorem throw0_pops_completed prog fn ip cd hs h st lp rest lg :
  nth_error prog fn = Some cd -> nth_error cd ip = Some IThrow0 ->
  h_err h = None -> h_has_ret h = false ->
  step prog {| frames := {| f_fn := fn; f_ip := ip; f_handlers := hs ++ [h]; f_stack := st; f_loops := lp |} :: rest;
               vlog := lg |} =
  Running {| frames := {| f_fn := fn; f_ip := S ip; f_handlers := hs; f_stack := st; f_loops := lp |} :: rest;
             vlog := lg |}.
Proof.
  intros Hp Hc He Hr. unfold step. simpl. rewrite Hp, Hc. rewrite last_handler_app, He, Hr.
  unfold upd_frame, pop_handler. simpl. rewrite removelast_last. reflexivity.
Qed.

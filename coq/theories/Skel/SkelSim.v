(* Property C03: the handler machine running the compiled skeleton agrees with the specification,
   for every program (simulation proof); the compiler is [dcomp] of SkelDecl.v. *)
From Coq Require Import List ZArith Bool Lia.
From Ugo Require Import Base.ListFacts Skel.Skel Skel.SkelProofs Skel.SkelDecl.
Import ListNotations.
Local Open Scope Z_scope.

Definition mkf fn ip hs st lp : frame := {| f_fn := fn; f_ip := ip; f_handlers := hs; f_stack := st; f_loops := lp |}.
Definition mks fs lg : vmstate := {| frames := fs; vlog := lg |}.
Definition mkh sp c fi rt er hr : handler := {| h_sp := sp; h_catch := c; h_finally := fi; h_return_to := rt; h_err := er; h_has_ret := hr |}.

(* the step RETURN takes with value v above the frames [rest] *)
Definition returns (rest : list frame) (lg : list event) (v : sval) : vmres :=
  match rest with
  | [] => Done lg (match v with VAtom a => OReturn a | _ => ONormal end)
  | pf :: rest' => Running (mks (mkf (f_fn pf) (f_ip pf) (f_handlers pf) (f_stack pf ++ [v]) (f_loops pf) :: rest') lg)
  end.
Definition retval (o : outcome) : sval := match o with OReturn a => VAtom a | _ => VUndef end.

(* break, continue and return are carried out after the finally blocks on their way *)
Definition deferred (o : outcome) : Prop := match o with OBreak | OContinue | OReturn _ => True | _ => False end.
Lemma outcome_cases o : o = ONormal \/ (exists e, o = OThrow e) \/ deferred o.
Proof. destruct o; cbn [deferred]; eauto. Qed.

Section Machine.
Variable prog : list (list instr).

Inductive star : vmstate -> vmstate -> Prop :=
| star_refl s : star s s
| star_step s s' s'' : step prog s = Running s' -> star s' s'' -> star s s''.

Lemma star_trans a b c : star a b -> star b c -> star a c.
Proof. induction 1; intros; [assumption | econstructor; eauto]. Qed.
Lemma star_one a b : step prog a = Running b -> star a b.
Proof. intros. econstructor; [eassumption | constructor]. Qed.

(* the target is the result of a step, not a state: a run may so end in [Done ..] or at the raising
   of an error, [do_throw M e] *)
Definition reach (s : vmstate) (r : vmres) : Prop := exists m, star s m /\ step prog m = r.
Lemma reach_now a r : step prog a = r -> reach a r.
Proof. intro H. exists a. split; [apply star_refl | exact H]. Qed.
Lemma reach_star a b r : star a b -> reach b r -> reach a r.
Proof. intros H [m [H1 H2]]. exists m. split; [eapply star_trans; eauto | exact H2]. Qed.
Lemma reach_running a b : reach a (Running b) -> star a b.
Proof. intros [m [H1 H2]]. eapply star_trans; [exact H1 | apply star_one; exact H2]. Qed.

Lemma reach_run a r : reach a r -> (forall s, r <> Running s) -> exists fuel, run fuel prog a = r.
Proof.
  intros [b [H Hb]] Hr. induction H as [s|s s' s'' Hs _ IH].
  - exists 1%nat. cbn [run]. rewrite Hb. destruct r; try reflexivity. exfalso. eapply Hr. reflexivity.
  - destruct (IH Hb) as [fuel Hf]. exists (S fuel). cbn [run]. rewrite Hs. exact Hf.
Qed.

(* how a statement with outcome o gets to M; for an error M is the state in which it is raised, by
   this frame or by a called function *)
Definition arrives (S0 : vmstate) (o : outcome) (M : vmstate) : Prop :=
  match o with OThrow e => reach S0 (do_throw M e) | _ => star S0 M end.
Lemma arrives_star S0 S1 o M : star S0 S1 -> arrives S1 o M -> arrives S0 o M.
Proof. destruct o; cbn [arrives]; intros; (eapply star_trans || eapply reach_star); eassumption. Qed.
Lemma arrives_deferred {S0 o M} : deferred o -> arrives S0 o M = star S0 M.
Proof. destruct o; intros []; reflexivity. Qed.

(* function g, started above the frames [rest] with log lg, ends with outcome o and log lg' *)
Definition fn_runs (g : nat) (rest : list frame) (lg lg' : list event) (o : outcome) : Prop :=
  let S0 := mks (mkf g 0 [] [] [] :: rest) lg in
  match o with
  | ONormal | OReturn _ => reach S0 (returns rest lg' (retval o))
  | OThrow e => reach S0 (do_throw (mks rest lg') e)
  | OBreak | OContinue => False
  end.

Lemma fn_runs_main g lf o : fn_runs g [] [] lf o -> exists fuel, run fuel prog (mks [mkf g 0 [] [] []] []) = Done lf o.
Proof. destruct o; cbn [fn_runs]; intro H; try contradiction; (apply reach_run; [exact H | discriminate]). Qed.
End Machine.

(* handlers that no longer catch anything: their finally block is running (or has run) *)
Definition dead (h : handler) : Prop := h_catch h = 0%nat /\ h_finally h = 0%nat.
Definition with_err (h : handler) (e : Z) : handler := mkh (h_sp h) (h_catch h) (h_finally h) (h_return_to h) (Some e) (h_has_ret h).
(* the handler of a try statement whose finally part has begun *)
Definition settled (h : handler) : handler := mkh (h_sp h) 0 0 (h_return_to h) (h_err h) (h_has_ret h).

Lemma last_handler_nil : last_handler [] = None.
Proof. reflexivity. Qed.

Lemma ff_stop fuel upto hs : (length hs <= upto)%nat -> find_finally fuel upto hs = (hs, 0%nat).
Proof.
  intro H. destruct fuel as [|fuel]; [reflexivity|]. cbn [find_finally].
  destruct (last_handler hs) as [h|] eqn:E; [|reflexivity].
  assert (Hl: (length hs - 1 < upto)%nat).
  { destruct hs; [discriminate|]. cbn [length] in *. lia. }
  apply Nat.ltb_lt in Hl. rewrite Hl. reflexivity.
Qed.

Lemma ff_top fuel upto hs h : (upto <= length hs)%nat ->
  find_finally (S fuel) upto (hs ++ [h]) = if Nat.eqb (h_finally h) 0 then find_finally fuel upto hs else (hs ++ [h], h_finally h).
Proof.
  intro Hu. cbn [find_finally]. rewrite last_handler_app, last_length.
  replace (Nat.ltb (S (length hs) - 1) upto) with false by (symmetry; apply Nat.ltb_ge; lia).
  unfold pop_handler. rewrite removelast_last. reflexivity.
Qed.

(* the machine gives FINALIZER and throw one unit of fuel more than there are handlers, and each
   handler popped costs one: hence S (length _) *)
Lemma ff_dead upto hs ds : Forall dead ds -> (upto <= length hs)%nat ->
  find_finally (S (length (hs ++ ds))) upto (hs ++ ds) = find_finally (S (length hs)) upto hs.
Proof.
  intros Hd Hu. induction ds as [|d ds IH] using rev_ind; [rewrite app_nil_r; reflexivity|].
  apply Forall_app in Hd as [Hds Hd1]. inversion Hd1 as [|? ? [_ Hfi] _]; subst.
  rewrite app_assoc, last_length, ff_top, Hfi by (rewrite app_length; lia). exact (IH Hds).
Qed.

Lemma ht_top fuel fn ip hs h st lps e :
  handle_thrown (S fuel) (mkf fn ip (hs ++ [h]) st lps) e =
  if Nat.eqb (h_catch h) 0 && Nat.eqb (h_finally h) 0 then handle_thrown fuel (mkf fn ip hs st lps) e
  else Some (mkf fn (if Nat.eqb (h_catch h) 0 then h_finally h else h_catch h) (hs ++ [with_err h e]) (firstn (h_sp h) st) lps).
Proof.
  cbn [handle_thrown mkf f_handlers]. rewrite last_handler_app.
  unfold set_last, pop_handler, upd_frame. cbn [f_fn f_ip f_stack f_loops f_handlers]. rewrite removelast_last.
  destruct (Nat.eqb (h_catch h) 0), (Nat.eqb (h_finally h) 0); reflexivity.
Qed.

Lemma do_throw_frame fn ip hs st lps rest lg e :
  do_throw (mks (mkf fn ip hs st lps :: rest) lg) e =
  match handle_thrown (S (length hs)) (mkf fn ip hs st lps) e with
  | Some f' => Running (mks (f' :: rest) lg)
  | None => do_throw (mks rest lg) e
  end.
Proof. unfold do_throw. cbn [frames mks vlog throw_frames mkf f_handlers]. destruct handle_thrown; reflexivity. Qed.

Lemma throw_dead fn ip hs ds st lps rest lg e : Forall dead ds ->
  do_throw (mks (mkf fn ip (hs ++ ds) st lps :: rest) lg) e = do_throw (mks (mkf fn ip hs st lps :: rest) lg) e.
Proof.
  intro Hd. induction ds as [|d ds IH] using rev_ind; [rewrite app_nil_r; reflexivity|].
  apply Forall_app in Hd as [Hds Hd1]. inversion Hd1 as [|? ? [Hc Hfi] _]; subst.
  rewrite <- (IH Hds), !do_throw_frame, app_assoc, last_length, ht_top, Hc, Hfi. reflexivity.
Qed.

Lemma throw_here fn ip hs h ds st lps rest lg e : Forall dead ds -> (h_catch h <> 0%nat \/ h_finally h <> 0%nat) ->
  do_throw (mks (mkf fn ip ((hs ++ [h]) ++ ds) st lps :: rest) lg) e =
  Running (mks (mkf fn (if Nat.eqb (h_catch h) 0 then h_finally h else h_catch h) (hs ++ [with_err h e]) (firstn (h_sp h) st) lps :: rest) lg).
Proof.
  intros Hd Hl. rewrite throw_dead, do_throw_frame, last_length, ht_top by exact Hd.
  destruct Hl as [H|H]; apply Nat.eqb_neq in H; rewrite H, ?andb_false_r; reflexivity.
Qed.

Lemma throw_up fn ip ds st lps rest lg e : Forall dead ds ->
  do_throw (mks (mkf fn ip ds st lps :: rest) lg) e = do_throw (mks rest lg) e.
Proof. intro Hd. rewrite <- (app_nil_l ds), throw_dead, do_throw_frame by exact Hd. reflexivity. Qed.

Section Steps.
Context {prog : list (list instr)} {fn : nat} {cd : list instr} (Hcd : nth_error prog fn = Some cd).
Context {ip : nat} {hs : list handler} {st : list sval} {lps : list (nat * nat)} {rest : list frame} {lg : list event}.
Notation here := (mks (mkf fn ip hs st lps :: rest) lg).
Notation under h := (mks (mkf fn ip (hs ++ [h]) st lps :: rest) lg).

(* unfolds [step] at the instruction that H gives and reduces the frame that results *)
Ltac go H := unfold step; cbn [frames mks mkf f_fn f_ip f_handlers f_stack f_loops vlog]; rewrite Hcd, H;
  rewrite ?last_handler_app; unfold set_last, pop_handler; rewrite ?removelast_last;
  cbn [upd_frame mkf f_fn f_ip f_handlers f_stack f_loops]; try reflexivity.
Lemma st_log {a} : nth_error cd ip = Some (ILog a) -> step prog here = Running (mks (mkf fn (S ip) hs st lps :: rest) (lg ++ [ELog a])).
Proof. intro H. go H. Qed.
Lemma st_push {a} : nth_error cd ip = Some (IPush a) -> step prog here = Running (mks (mkf fn (S ip) hs (st ++ [VAtom a]) lps :: rest) lg).
Proof. intro H. go H. Qed.
Lemma st_setuptry {c fi} : nth_error cd ip = Some (ISetupTry c fi) ->
  step prog here = Running (mks (mkf fn (S ip) (hs ++ [mkh (length st) c fi 0 None false]) st lps :: rest) lg).
Proof. intro H. go H. Qed.
Lemma st_jump {pos} : nth_error cd ip = Some (IJump pos) -> step prog here = Running (mks (mkf fn pos hs st lps :: rest) lg).
Proof. intro H. go H. Qed.
Lemma st_throwuser {a} : nth_error cd ip = Some (IThrowUser a) -> step prog here = do_throw (mks (mkf fn (S ip) hs st lps :: rest) lg) a.
Proof. intro H. go H. Qed.
Lemma st_fail : nth_error cd ip = Some IFail -> step prog here = do_throw (mks (mkf fn (S ip) hs st lps :: rest) lg) (-1).
Proof. intro H. go H. Qed.
Lemma st_call {g} : nth_error cd ip = Some (ICall g) ->
  step prog here = Running (mks (mkf g 0 [] [] [] :: mkf fn (S ip) hs st lps :: rest) lg).
Proof. intro H. go H. Qed.
Lemma st_logtop : nth_error cd ip = Some ILogTop ->
  step prog here = Running (mks (mkf fn (S ip) hs (removelast st) lps :: rest)
                              (lg ++ [ERet (match last st VUndef with VAtom a => Some a | _ => None end)])).
Proof. intro H. go H. Qed.
Lemma st_loopinit {k} : nth_error cd ip = Some (ILoopInit k) -> step prog here = Running (mks (mkf fn (S ip) hs st (set_loop k 0 lps) :: rest) lg).
Proof. intro H. go H. Qed.
Lemma st_looptest {k ex} : nth_error cd ip = Some (ILoopTest k ex) ->
  step prog here = Running (mks (mkf fn (if Nat.ltb (get_loop k lps) 2 then S ip else ex) hs st lps :: rest) lg).
Proof. intro H. go H. destruct (Nat.ltb (get_loop k lps) 2); reflexivity. Qed.
Lemma st_loopincr {k} : nth_error cd ip = Some (ILoopIncr k) ->
  step prog here = Running (mks (mkf fn (S ip) hs st (set_loop k (S (get_loop k lps)) lps) :: rest) lg).
Proof. intro H. go H. Qed.
Lemma st_return {hv} : nth_error cd ip = Some (IReturn hv) -> step prog here = returns rest lg (if hv then last st VUndef else VUndef).
Proof. intro H. go H. Qed.

Lemma st_setupcatch {h named} : nth_error cd ip = Some (ISetupCatch named) ->
  step prog (under h) = Running (mks (mkf fn (S ip) (hs ++ [mkh (h_sp h) 0 (h_finally h) (h_return_to h) None (h_has_ret h)]) st lps :: rest)
                              (lg ++ match named, h_err h with true, Some e => [ECaught e] | _, _ => [] end)).
Proof. intro H. go H. destruct named, (h_err h); rewrite ?app_nil_r; reflexivity. Qed.
Lemma st_setupfinally {h} : nth_error cd ip = Some ISetupFinally ->
  step prog (under h) = Running (mks (mkf fn (S ip) (hs ++ [settled h]) st lps :: rest) lg).
Proof. intro H. go H. Qed.
Lemma st_throw0_err {h e} : nth_error cd ip = Some IThrow0 -> h_err h = Some e ->
  step prog (under h) = do_throw (mks (mkf fn (S ip) hs st lps :: rest) lg) e.
Proof. intros H He. go H. rewrite He. reflexivity. Qed.
Lemma st_throw0_ret {h} : nth_error cd ip = Some IThrow0 -> h_err h = None -> h_has_ret h = true ->
  step prog (under h) = Running (mks (mkf fn (h_return_to h) hs (firstn (h_sp h) st) lps :: rest) lg).
Proof. intros H He Hr. go H. rewrite He, Hr. reflexivity. Qed.
Lemma st_throw0_none {h} : nth_error cd ip = Some IThrow0 -> h_err h = None -> h_has_ret h = false ->
  step prog (under h) = Running (mks (mkf fn (S ip) hs st lps :: rest) lg).
Proof. exact (throw0_pops_completed prog fn ip cd hs h st lps rest lg Hcd). Qed.

Lemma st_finalizer_found {upto h ds} : nth_error cd ip = Some (IFinalizer upto) ->
  Forall dead ds -> (upto <= length hs)%nat -> h_finally h <> 0%nat ->
  step prog (mks (mkf fn ip ((hs ++ [h]) ++ ds) st lps :: rest) lg) =
  Running (mks (mkf fn (h_finally h) (hs ++ [mkh (length st) (h_catch h) (h_finally h) ip None true]) st lps :: rest) lg).
Proof.
  intros H Hd Hu Hn. go H. rewrite ff_dead, last_length, ff_top by (try assumption; rewrite app_length; lia).
  apply Nat.eqb_neq in Hn. rewrite Hn. cbv beta iota. rewrite Hn, last_handler_app, removelast_last. reflexivity.
Qed.

Lemma st_finalizer_none {upto ds} : nth_error cd ip = Some (IFinalizer upto) ->
  Forall dead ds -> length hs = upto ->
  step prog (mks (mkf fn ip (hs ++ ds) st lps :: rest) lg) = Running (mks (mkf fn (S ip) hs st lps :: rest) lg).
Proof.
  intros H Hd Hu. go H. rewrite ff_dead, ff_stop by (try assumption; lia). reflexivity.
Qed.
End Steps.

Definition optP {A} (Q : A -> Prop) (o : option A) : Prop := match o with Some x => Q x | None => True end.
Section SkelInd.
  Variables (P : skel -> Prop) (Q : list skel -> Prop).
  Hypotheses (Hlog : forall a, P (SLog a)) (Hbreak : P SBreak) (Hcont : P SContinue) (Hret : forall a, P (SReturn a))
    (Hthrow : forall a, P (SThrow a)) (Hfail : P SFail) (Hcall : forall f, P (SCall f))
    (Hloop : forall body, Q body -> P (SLoop body))
    (Htry : forall body catch fin, Q body ->
            optP Q (option_map snd catch) -> optP Q fin -> P (STry body catch fin))
    (Hnil : Q []) (Hcons : forall x xs, P x -> Q xs -> Q (x :: xs)).
  Fixpoint skel_ind2 (s : skel) : P s :=
    let blk := fix blk (l : list skel) : Q l :=
      match l with [] => Hnil | x :: xs => Hcons x xs (skel_ind2 x) (blk xs) end in
    match s with
    | SLog a => Hlog a
    | SBreak => Hbreak
    | SContinue => Hcont
    | SReturn a => Hret a
    | SThrow a => Hthrow a
    | SFail => Hfail
    | SCall f => Hcall f
    | SLoop body => Hloop body (blk body)
    | STry body catch fin =>
        Htry body catch fin (blk body)
          (match catch as c return optP Q (option_map snd c) with Some pc => blk (snd pc) | None => I end)
          (match fin as c return optP Q c with Some fb => blk fb | None => I end)
    end.
  Fixpoint block_ind2 (l : list skel) : Q l :=
    match l with [] => Hnil | x :: xs => Hcons x xs (skel_ind2 x) (block_ind2 xs) end.
  Lemma skel_block_ind : (forall s, P s) /\ (forall l, Q l).
  Proof. exact (conj skel_ind2 block_ind2). Qed.
End SkelInd.

(* sz, nl, wfs and dcomp each carry their block function as a local fix; it is the function
   defined after them, by computation *)
Lemma sz_try ti lt body catch fin :
  sz ti lt (STry body catch fin) =
  (1 + szb (ti + 1) lt body + match catch with Some (_, cb) => 2 + szb (ti + 1) lt cb | None => 0 end
   + 1 + match fin with Some fb => szb (ti + 1) lt fb | None => 0 end + 1)%nat.
Proof. reflexivity. Qed.
Lemma sz_loop ti lt body : sz ti lt (SLoop body) = (2 + szb ti (Some ti) body + 2)%nat.
Proof. reflexivity. Qed.
Lemma nl_try body catch fin :
  nl (STry body catch fin) = (nlb body + match catch with Some (_, cb) => nlb cb | None => 0 end + match fin with Some fb => nlb fb | None => 0 end)%nat.
Proof. reflexivity. Qed.
Lemma nl_loop body : nl (SLoop body) = S (nlb body).
Proof. reflexivity. Qed.
Lemma wfs_try il nf body catch fin :
  wfs il nf (STry body catch fin) = wfb il nf body && match catch with Some (_, cb) => wfb il nf cb | None => true end
      && match fin with Some fb => wfb il nf fb | None => true end.
Proof. reflexivity. Qed.
Lemma wfs_loop il nf body : wfs il nf (SLoop body) = wfb true nf body.
Proof. reflexivity. Qed.
Lemma dcomp_loop p ti k lp body :
  dcomp p ti k lp (SLoop body) =
  let test := S p in
  let post := (p + 2 + szb ti (Some ti) body)%nat in
  let exit := (post + 2)%nat in
  ILoopInit k :: ILoopTest k exit :: dcb (p + 2)%nat ti (S k) (Some (ti, exit, post)) body ++ [ILoopIncr k; IJump test].
Proof. reflexivity. Qed.
Lemma dcomp_try p ti k lp body catch fin :
  dcomp p ti k lp (STry body catch fin) =
  let ti' := ti + 1 in
  let lt := lt_of lp in
  let pbody := S p in
  let pafter := (pbody + szb ti' lt body)%nat in
  let catchpos := match catch with Some _ => S pafter | None => 0%nat end in
  let finallypos := match catch with Some (_, cb) => (pafter + 2 + szb ti' lt cb)%nat | None => pafter end in
  let kc := (k + nlb body)%nat in
  let kf := (kc + match catch with Some (_, cb) => nlb cb | None => 0 end)%nat in
  ISetupTry catchpos finallypos :: dcb pbody ti' k lp body
  ++ match catch with
     | Some (named, cb) => IJump finallypos :: ISetupCatch named :: dcb (pafter + 2)%nat ti' kc lp cb
     | None => []
     end
  ++ ISetupFinally :: match fin with Some fb => dcb (S finallypos) ti' kf lp fb | None => [] end
  ++ [IThrow0].
Proof. reflexivity. Qed.
Lemma dcomp_dcb_length :
  (forall s p ti k lp, length (dcomp p ti k lp s) = sz ti (lt_of lp) s) /\ (forall l p ti k lp, length (dcb p ti k lp l) = szb ti (lt_of lp) l).
Proof.
  apply skel_block_ind; try reflexivity.
  1-2: (* SBreak, SContinue *) intros p ti k [[[l b] c]|]; cbn [dcomp sz lt_of]; [|reflexivity]; destruct (l =? ti); reflexivity.
  - (* SReturn *) intros a p ti k lp. cbn [dcomp sz]. destruct (-1 <? ti); reflexivity.
  - (* SLoop *) intros body IH p ti k lp. rewrite dcomp_loop, sz_loop. cbv zeta. cbn [length]. rewrite app_length, IH. cbn [length lt_of]. lia.
  - (* STry *) intros body catch fin IHb IHc IHf p ti k lp. rewrite dcomp_try, sz_try. cbv zeta. cbn [length].
    rewrite !app_length. cbn [length]. rewrite !app_length, IHb. cbn [length].
    destruct catch as [[named cb]|]; destruct fin as [fb|]; cbn [optP option_map snd length] in *; rewrite ?IHc, ?IHf; lia.
  - (* x :: xs *) intros x xs IHx IHxs p ti k lp. cbn [dcb szb]. rewrite app_length, IHx, IHxs. reflexivity.
Qed.
Lemma dcomp_length s p ti k lp : length (dcomp p ti k lp s) = sz ti (lt_of lp) s.
Proof. apply dcomp_dcb_length. Qed.
Lemma dcb_length l p ti k lp : length (dcb p ti k lp l) = szb ti (lt_of lp) l.
Proof. apply dcomp_dcb_length. Qed.

Definition code_at (cd : list instr) (p : nat) (c : list instr) : Prop :=
  forall i x, nth_error c i = Some x -> nth_error cd (p + i) = Some x.
Lemma code_at_app cd p c1 c2 : code_at cd p (c1 ++ c2) -> code_at cd p c1 /\ code_at cd (p + length c1) c2.
Proof.
  intro H. split; intros i x Hi.
  - apply H. rewrite nth_error_app1; [exact Hi|]. apply nth_error_Some. congruence.
  - rewrite <- Nat.add_assoc. apply H. rewrite nth_error_app2 by lia. replace (length c1 + i - length c1)%nat with i by lia. exact Hi.
Qed.
Lemma code_at_cons cd p i c : code_at cd p (i :: c) -> nth_error cd p = Some i /\ code_at cd (S p) c.
Proof.
  intro H. split.
  - rewrite <- (Nat.add_0_r p). apply H. reflexivity.
  - intros j x Hj. replace (S p + j)%nat with (p + S j)%nat by lia. apply H. exact Hj.
Qed.

(* the counters of the loops below k (those of enclosing and earlier loops) are the same *)
Definition lagree (k : nat) (l1 l2 : list (nat * nat)) : Prop := forall j, (j < k)%nat -> get_loop j l1 = get_loop j l2.
Lemma lagree_refl k l : lagree k l l. Proof. intros j _. reflexivity. Qed.
Lemma lagree_trans k a b c : lagree k a b -> lagree k b c -> lagree k a c.
Proof. intros H1 H2 j Hj. rewrite H1 by assumption. apply H2, Hj. Qed.
Lemma get_set_same k v l : get_loop k (set_loop k v l) = v.
Proof. induction l as [|[k' v'] r IH]; cbn [set_loop get_loop]; [rewrite Nat.eqb_refl; reflexivity|].
  destruct (Nat.eqb k k') eqn:E; cbn [get_loop]; [rewrite Nat.eqb_refl; reflexivity | rewrite E; exact IH]. Qed.
Lemma get_set_other k j v l : j <> k -> get_loop j (set_loop k v l) = get_loop j l.
Proof. intro Hn. induction l as [|[k' v'] r IH]; cbn [set_loop get_loop].
  - apply Nat.eqb_neq in Hn. rewrite Hn. reflexivity.
  - destruct (Nat.eqb k k') eqn:E; cbn [get_loop].
    + apply Nat.eqb_eq in E. subst k'. apply Nat.eqb_neq in Hn. rewrite Hn. reflexivity.
    + destruct (Nat.eqb j k'); [reflexivity | exact IH]. Qed.
Lemma lagree_set k v l : lagree k l (set_loop k v l).
Proof. intros j Hj. symmetry. apply get_set_other. lia. Qed.

Definition is_some {A} (o : option A) : bool := match o with Some _ => true | None => false end.

Section Sim.
Variable prog : list (list instr).
Variable table : list fsem.
Variable nf : nat.                (* the functions below nf are defined; table holds their meanings *)
Variables (fn : nat) (cd : list instr) (rest : list frame).   (* rest: the frames below that of fn *)
Hypothesis Hcd : nth_error prog fn = Some cd.

(* calling function g from any frame (or starting it as main) behaves as its meaning says *)
Definition call_ok (g : nat) : Prop :=
  exists lf og, nth_error table g = Some (lf, og) /\ forall below lg, fn_runs prog g below lg (lg ++ lf) og.
Hypothesis Hcalls : forall g, (g < nf)%nat -> call_ok g.

(* The code of a deferred exit to try level l (that of the loop; -1 for return): FINALIZER (l+1),
   which runs the finally blocks above that level and pops their handlers, then the instruction i
   that leaves.  The compiler omits FINALIZER at level l itself, where no handler has been pushed since. *)
Definition leave_point (ti l : Z) (i : instr) (r : nat) (ds : list handler) : Prop :=
  (nth_error cd r = Some (IFinalizer (Z.to_nat (l + 1))) /\ nth_error cd (S r) = Some i) \/
  (l = ti /\ ds = [] /\ nth_error cd r = Some i).

Lemma leave_point_intro ti l {i r} (direct : bool) :
  code_at cd r ((if direct then [] else [IFinalizer (Z.to_nat (l + 1))]) ++ [i]) -> (direct = true -> l = ti) -> leave_point ti l i r [].
Proof.
  intros Hc Hl. destruct direct; cbn [app] in Hc; apply code_at_cons in Hc as [H1 Hc].
  - right. auto.
  - left. apply code_at_cons in Hc as [H2 _]. auto.
Qed.

Lemma leave_land {ti l i r ds} {hs : list handler} stk lps lg : Z.of_nat (length hs) = l + 1 -> Forall dead ds -> leave_point ti l i r ds ->
  exists r', nth_error cd r' = Some i /\ star prog (mks (mkf fn r (hs ++ ds) stk lps :: rest) lg) (mks (mkf fn r' hs stk lps :: rest) lg).
Proof.
  intros Hlen Hds [[H1 H2]|(_ & -> & H1)].
  - exists (S r). split; [exact H2|]. apply star_one. apply (st_finalizer_none Hcd H1 Hds). lia.
  - exists r. rewrite app_nil_r. split; [exact H1 | apply star_refl].
Qed.

(* above level l the exit stands at a FINALIZER, which looks at the handlers only when executed:
   the same point serves at every outer level, whatever handlers are left *)
Lemma leave_point_outer {ti l i r ds} {hs : list handler} : Z.of_nat (length hs) = ti + 1 -> l <= ti -> leave_point (ti + 1) l i r ds ->
  exists upto, (upto <= length hs)%nat /\ nth_error cd r = Some (IFinalizer upto) /\ forall ti' ds', leave_point ti' l i r ds'.
Proof.
  intros Hlen Hl [H|[H _]]; [|lia]. exists (Z.to_nat (l + 1)). split; [lia|]. split; [apply H|]. intros. left. exact H.
Qed.

(* where a statement that ended with outcome o has left the machine: instruction r, the dead
   handlers ds above those it found, the stack stk *)
Definition at_exit (ti : Z) (lp : lctx) (pend : nat) (o : outcome) (r : nat) (ds : list handler) (stk : list sval) : Prop :=
  match o with
  | ONormal => r = pend /\ ds = []
  | OThrow _ => True
  | OReturn a => leave_point ti (-1) (IReturn true) r ds /\ last stk VUndef = VAtom a
  | OBreak => match lp with Some (l, brk, _) => leave_point ti l (IJump brk) r ds | None => False end
  | OContinue => match lp with Some (l, _, cont) => leave_point ti l (IJump cont) r ds | None => False end
  end.

(* the compiler's try index and the machine meet here: at try level ti there are ti + 1 handlers *)
Definition ctx_ok (ti : Z) (lp : lctx) (hs : list handler) : Prop :=
  Z.of_nat (length hs) = ti + 1 /\ match lp with Some (l, _, _) => l <= ti | None => True end.

Lemma ctx_inner {ti lp hs} h : ctx_ok ti lp hs -> ctx_ok (ti + 1) lp (hs ++ [h]).
Proof.
  intros [H1 H2]. split; [rewrite last_length; lia|].
  destruct lp as [[[l b] c]|]; [lia | exact I].
Qed.

Lemma at_exit_outer {ti lp pend o r ds stk hs} : ctx_ok ti lp hs -> deferred o -> at_exit (ti + 1) lp pend o r ds stk ->
  exists upto, (upto <= length hs)%nat /\ nth_error cd r = Some (IFinalizer upto) /\ forall pend' ds', at_exit ti lp pend' o r ds' stk.
Proof.
  intros [Hlen Hlp] Hd Hat. destruct o; try contradiction; cbn [at_exit] in *.
  1-2: (* break, continue *) destruct lp as [[[l b] c]|]; [|contradiction];
    destruct (leave_point_outer Hlen Hlp Hat) as (u & Hu & Hf & Hall); exists u; auto.
  (* return *) destruct Hat as [Hp Hlast].
  destruct (leave_point_outer (l := -1) Hlen ltac:(lia) Hp) as (u & Hu & Hf & Hall). exists u. auto.
Qed.

(* What the machine has done, started in S0, when a statement with outcome o is over: it is in
   the same frame with the handlers hs it found plus dead ones, the stack st it found plus junk,
   the counters of the loops below k unchanged, at an exit point for o. *)
Inductive good (ti : Z) (lp : lctx) (pend : nat) (hs : list handler) (st : list sval) (lps : list (nat * nat)) (k : nat)
    (lg : list event) (o : outcome) (S0 : vmstate) : Prop :=
| good_at r ds junk lps' : Forall dead ds -> lagree k lps lps' -> at_exit ti lp pend o r ds (st ++ junk) ->
    arrives prog S0 o (mks (mkf fn r (hs ++ ds) (st ++ junk) lps' :: rest) lg) -> good ti lp pend hs st lps k lg o S0.
Arguments good_at {ti lp pend hs st lps k lg o S0} r ds junk lps'.

Lemma good_at_nil {ti lp pend hs st lps k lg o S0} r junk lps' : lagree k lps lps' -> at_exit ti lp pend o r [] (st ++ junk) ->
  arrives prog S0 o (mks (mkf fn r hs (st ++ junk) lps' :: rest) lg) -> good ti lp pend hs st lps k lg o S0.
Proof. intros Ha Hat Hs. apply (good_at r [] junk lps'); [constructor | exact Ha | exact Hat | rewrite app_nil_r; exact Hs]. Qed.

Lemma good_normal {ti lp pend hs st lps k lg S0} junk lps' : lagree k lps lps' ->
  star prog S0 (mks (mkf fn pend hs (st ++ junk) lps' :: rest) lg) -> good ti lp pend hs st lps k lg ONormal S0.
Proof. intros Ha Hs. apply (good_at_nil pend junk lps'); [exact Ha | split; reflexivity | exact Hs]. Qed.
Lemma good_here ti lp pend hs st lps k lg S0 :
  star prog S0 (mks (mkf fn pend hs st lps :: rest) lg) -> good ti lp pend hs st lps k lg ONormal S0.
Proof. intro Hs. apply (good_normal [] lps (lagree_refl k lps)). rewrite app_nil_r. exact Hs. Qed.
Lemma good_normal_inv ti lp pend hs st lps k lg S0 : good ti lp pend hs st lps k lg ONormal S0 ->
  exists junk lps', lagree k lps lps' /\ star prog S0 (mks (mkf fn pend hs (st ++ junk) lps' :: rest) lg).
Proof. intros [r ds junk lps' _ Ha [-> ->] Hs]. rewrite app_nil_r in Hs. exists junk, lps'. split; assumption. Qed.
Lemma good_raise ti lp pend hs st lps k lg e ip S0 :
  reach prog S0 (do_throw (mks (mkf fn ip hs st lps :: rest) lg) e) -> good ti lp pend hs st lps k lg (OThrow e) S0.
Proof. intro Hr. apply (good_at_nil ip [] lps); [apply lagree_refl | exact I | rewrite app_nil_r; exact Hr]. Qed.

Lemma good_from ti lp pend hs st lps lps1 k lg o S0 S1 :
  star prog S0 S1 -> lagree k lps lps1 -> good ti lp pend hs st lps1 k lg o S1 -> good ti lp pend hs st lps k lg o S0.
Proof.
  intros Hs Hl [r ds junk lps' Hds Ha Hat Harr].
  apply (good_at r ds junk lps'); [exact Hds | eapply lagree_trans; eassumption | exact Hat | eapply arrives_star; eassumption].
Qed.
Lemma good_star ti lp pend hs st lps k lg o S0 S1 :
  star prog S0 S1 -> good ti lp pend hs st lps k lg o S1 -> good ti lp pend hs st lps k lg o S0.
Proof. intros Hs Hg. eapply good_from; [exact Hs | apply lagree_refl | exact Hg]. Qed.
(* what the statement found on the stack above st counts as junk *)
Lemma good_base ti lp pend hs st j lps k lg o S0 :
  good ti lp pend hs (st ++ j) lps k lg o S0 -> good ti lp pend hs st lps k lg o S0.
Proof. intros [r ds junk lps' Hds Ha Hat Harr]. rewrite <- app_assoc in Hat, Harr. exact (good_at r ds (j ++ junk) lps' Hds Ha Hat Harr). Qed.
(* for the parts of a statement: their first loop identifiers are not below its own *)
Lemma good_le {ti lp pend hs st lps k k1 lg o S0} : (k <= k1)%nat ->
  good ti lp pend hs st lps k1 lg o S0 -> good ti lp pend hs st lps k lg o S0.
Proof. intros Hk [r ds junk lps' Hds Ha Hat Harr]. apply (good_at r ds junk lps' Hds); [|exact Hat | exact Harr]. intros j Hj. apply Ha. lia. Qed.

(* only a normal end is at pend, the position after the statement *)
Lemma good_pend ti lp pend pend' hs st lps k lg o S0 : o <> ONormal ->
  good ti lp pend hs st lps k lg o S0 -> good ti lp pend' hs st lps k lg o S0.
Proof. intros Ho [r ds junk lps' Hds Ha Hat Harr]. apply (good_at r ds junk lps' Hds Ha); [|exact Harr]. destruct o; try exact Hat. contradiction. Qed.

(* leaving a try statement whose handler is dead: the pending outcome concerns the enclosing handlers *)
Lemma good_lift ti lp pend pend' hs h st lps k lg o S0 : dead h -> ctx_ok ti lp hs -> o <> ONormal ->
  good (ti + 1) lp pend' (hs ++ [h]) st lps k lg o S0 -> good ti lp pend hs st lps k lg o S0.
Proof.
  intros Hd Hctx Ho [r ds junk lps' Hds Ha Hat Harr]. rewrite <- app_assoc in Harr.
  apply (good_at r (h :: ds) junk lps'); [constructor; assumption | exact Ha | | exact Harr].
  destruct (outcome_cases o) as [-> | [[e ->] | Hdef]]; [contradiction | exact I |].
  destruct (at_exit_outer Hctx Hdef Hat) as (_ & _ & _ & Hall). apply Hall.
Qed.

(* the block l, placed at p under the handlers hs, runs as its meaning says; block_ok below: wherever it is placed *)
Definition block_runs (ti : Z) (lp : lctx) (hs : list handler) (k p : nat) (l : list skel) : Prop := forall st lps lg,
  good ti lp (p + szb ti (lt_of lp) l) hs st lps k (lg ++ fst (sem_block table l)) (snd (sem_block table l)) (mks (mkf fn p hs st lps :: rest) lg).

(* ok: the code of a statement (a block), wherever it stands in cd, runs as the specification says *)
Definition stmt_ok (s : skel) : Prop := forall p ti k lp hs,
  code_at cd p (dcomp p ti k lp s) -> ctx_ok ti lp hs -> wfs (is_some lp) nf s = true -> forall st lps lg,
  good ti lp (p + sz ti (lt_of lp) s) hs st lps k (lg ++ fst (sem table s)) (snd (sem table s)) (mks (mkf fn p hs st lps :: rest) lg).
Definition block_ok (l : list skel) : Prop := forall p ti k lp hs,
  code_at cd p (dcb p ti k lp l) -> ctx_ok ti lp hs -> wfb (is_some lp) nf l = true -> block_runs ti lp hs k p l.

Lemma block_ok_inner {l p ti k k' lp hs} : block_ok l -> code_at cd p (dcb p (ti + 1) k' lp l) -> ctx_ok ti lp hs ->
  wfb (is_some lp) nf l = true -> (k <= k')%nat -> forall h, block_runs (ti + 1) lp (hs ++ [h]) k p l.
Proof. intros Hl Hc Hctx Hwf Hk h st lps lg. apply (good_le Hk), Hl; [exact Hc | apply ctx_inner, Hctx | exact Hwf]. Qed.

Lemma ok_log a : stmt_ok (SLog a).
Proof.
  intros p ti k lp hs Hc _ _ st lps lg. cbn [dcomp sem sz fst snd] in *.
  apply code_at_cons in Hc as [Hi _]. rewrite Nat.add_1_r. apply good_here, star_one, (st_log Hcd Hi).
Qed.

Lemma ok_throw a : stmt_ok (SThrow a).
Proof.
  intros p ti k lp hs Hc _ _ st lps lg. cbn [dcomp sem sz fst snd] in *. rewrite app_nil_r.
  apply code_at_cons in Hc as [Hi _].
  apply good_raise with (S p), reach_now, (st_throwuser Hcd Hi).
Qed.

Lemma ok_fail : stmt_ok SFail.
Proof.
  intros p ti k lp hs Hc _ _ st lps lg. cbn [dcomp sem sz fst snd] in *. rewrite app_nil_r.
  apply code_at_cons in Hc as [Hi _].
  apply good_raise with (S p), reach_now, (st_fail Hcd Hi).
Qed.

Lemma ok_return a : stmt_ok (SReturn a).
Proof.
  intros p ti k lp hs Hc [Hlen _] _ st lps lg. cbn [dcomp sem sz fst snd] in *. rewrite app_nil_r.
  apply code_at_cons in Hc as [Hi Hc].
  apply (good_at_nil (S p) [VAtom a] lps); [apply lagree_refl | split; [|apply last_last] | apply star_one, (st_push Hcd Hi)].
  destruct (-1 <? ti) eqn:E.
  - apply (leave_point_intro ti (-1) false); [exact Hc | discriminate].
  - apply (leave_point_intro ti (-1) true); [exact Hc | intros _; apply Z.ltb_ge in E; lia].
Qed.

Lemma ok_jump (isb : bool) : stmt_ok (if isb then SBreak else SContinue).
Proof.
  intros p ti k lp hs Hc _ Hwf st lps lg.
  destruct lp as [[[l b] c]|]; [|destruct isb; discriminate].
  destruct isb; cbn [dcomp sem sz fst snd lt_of] in *; rewrite app_nil_r.
  all: apply (good_at_nil p [] lps); [apply lagree_refl | | rewrite app_nil_r; apply star_refl].
  all: apply (leave_point_intro ti l (l =? ti) Hc), Z.eqb_eq.
Qed.

Lemma ok_call f : stmt_ok (SCall f).
Proof.
  intros p ti k lp hs Hc Hctx Hwf st lps lg. cbn [wfs] in Hwf. apply Nat.ltb_lt in Hwf.
  destruct (Hcalls f Hwf) as (lf & og & Htab & Hrun).
  cbn [dcomp sz] in *. apply code_at_cons in Hc as [Hi Hc]. apply code_at_cons in Hc as [Hi2 _].
  cbn [sem]. rewrite Htab.
  specialize (Hrun (mkf fn (S p) hs st lps :: rest) lg). eapply good_star; [apply star_one, (st_call Hcd Hi)|].
  (* the function returns v: RETURN pushes it in the caller's frame, LOGTOP pops and logs it *)
  assert (Hback: forall v S0, reach prog S0 (returns (mkf fn (S p) hs st lps :: rest) (lg ++ lf) v) ->
            good ti lp (p + 2) hs st lps k (lg ++ lf ++ [ERet (match v with VAtom a => Some a | _ => None end)]) ONormal S0).
  { intros v S0 Hr. apply good_here. eapply star_trans; [apply reach_running; exact Hr|]. apply star_one.
    cbn [mkf f_fn f_ip f_handlers f_stack f_loops].
    rewrite (st_logtop Hcd Hi2), last_last, removelast_last, app_assoc, Nat.add_succ_r, Nat.add_1_r. reflexivity. }
  destruct og as [| | |a|e]; cbn [fn_runs retval fst snd] in *.
  - exact (Hback VUndef _ Hrun).
  - contradiction.
  - contradiction.
  - exact (Hback (VAtom a) _ Hrun).
  - apply good_raise with (S p), Hrun.
Qed.

Lemma ok_nil : block_ok [].
Proof.
  intros p ti k lp hs _ _ _ st lps lg. cbn [sem_block szb fst snd]. rewrite app_nil_r, Nat.add_0_r. apply good_here, star_refl.
Qed.

Lemma ok_cons x xs : stmt_ok x -> block_ok xs -> block_ok (x :: xs).
Proof.
  intros Hx Hxs p ti k lp hs Hc Hctx Hwf st lps lg.
  cbn [dcb wfb szb] in *. apply andb_true_iff in Hwf as [Hwx Hwxs].
  apply code_at_app in Hc as [Hcx Hcxs]. rewrite dcomp_length in Hcxs.
  pose proof (Hx p ti k lp hs Hcx Hctx Hwx st lps lg) as Hgx.
  cbn [sem_block]. destruct (sem table x) as [l1 o1]. cbn [fst snd] in Hgx.
  destruct o1; try (cbn [fst snd]; eapply good_pend; [discriminate | exact Hgx]).
  apply good_normal_inv in Hgx as (junk & lps1 & Ha & Hs1).
  pose proof (Hxs _ ti _ lp hs Hcxs Hctx Hwxs (st ++ junk) lps1 (lg ++ l1)) as Hgxs.
  destruct (sem_block table xs) as [l2 o2]. cbn [fst snd] in *.
  rewrite app_assoc, Nat.add_assoc. apply good_base with junk. eapply good_from; [exact Hs1 | exact Ha |].
  refine (good_le _ Hgxs). lia.
Qed.

Section Loop.
Context {body : list skel} {p : nat} {ti : Z} {k : nat} {lp : lctx} {hs : list handler}.
Notation post := (S (S p) + szb ti (Some ti) body)%nat.
Notation exit := (post + 2)%nat.
Notation lpb := (Some (ti, exit, post)).
Hypotheses (Hiter : block_runs ti lpb hs (S k) (S (S p)) body) (Hlen : Z.of_nat (length hs) = ti + 1).
Hypotheses (Htest : nth_error cd (S p) = Some (ILoopTest k exit)).
Hypotheses (Hincr : nth_error cd post = Some (ILoopIncr k)) (Hjmp : nth_error cd (S post) = Some (IJump (S p))).

Lemma loop_from_test n : forall st lps lg, (get_loop k lps + n = 2)%nat ->
  good ti lp exit hs st lps k (lg ++ fst (loop_sem table body n)) (snd (loop_sem table body n)) (mks (mkf fn (S p) hs st lps :: rest) lg).
Proof.
  induction n as [|n IH]; intros st lps lg Hn; (eapply good_star; [apply star_one, (st_looptest Hcd Htest)|]).
  - replace (get_loop k lps) with 2%nat by lia. cbn [loop_sem fst snd Nat.ltb Nat.leb]. rewrite app_nil_r. apply good_here, star_refl.
  - replace (get_loop k lps <? 2)%nat with true by (symmetry; apply Nat.ltb_lt; lia).
    destruct (Hiter st lps lg) as [r ds junk lps' Hds Ha Hat Harr].
    cbn [loop_sem]. set (ls := loop_sem table body n) in *. clearbody ls. destruct ls as [l2 o2].
    destruct (sem_block table body) as [l1 o1]. cbn [fst snd lt_of] in *.
    assert (Hak: lagree k lps lps') by (intros j Hj; apply Ha; lia).
    (* from the post statement to the test, and on with one iteration less *)
    assert (Hnext: star prog (mks (mkf fn (S (S p)) hs st lps :: rest) lg) (mks (mkf fn post hs (st ++ junk) lps' :: rest) (lg ++ l1)) ->
                   good ti lp exit hs st lps k (lg ++ l1 ++ l2) o2 (mks (mkf fn (S (S p)) hs st lps :: rest) lg)).
    { intro Hp. rewrite app_assoc. apply good_base with junk.
      eapply good_from; [| | apply (IH _ (set_loop k (S (get_loop k lps')) lps'))].
      - eapply star_trans; [exact Hp|]. eapply star_step; [apply (st_loopincr Hcd Hincr)|]. apply star_one, (st_jump Hcd Hjmp).
      - eapply lagree_trans; [exact Hak | apply lagree_set].
      - rewrite get_set_same, <- (Ha k) by lia. lia. }
    (* return and error leave the loop as they left the body *)
    destruct o1; cbn [at_exit arrives fst snd] in *; try (apply (good_at r ds junk lps' Hds Hak); assumption).
    + (* normal end *) destruct Hat as [-> ->]. rewrite app_nil_r in Harr. exact (Hnext Harr).
    + (* break *) destruct (leave_land (st ++ junk) lps' (lg ++ l1) Hlen Hds Hat) as (r' & Hi & Hl).
      apply (good_normal junk lps' Hak).
      eapply star_trans; [exact Harr|]. eapply star_trans; [exact Hl|]. apply star_one, (st_jump Hcd Hi).
    + (* continue *) destruct (leave_land (st ++ junk) lps' (lg ++ l1) Hlen Hds Hat) as (r' & Hi & Hl).
      apply Hnext. eapply star_trans; [exact Harr|]. eapply star_trans; [exact Hl|]. apply star_one, (st_jump Hcd Hi).
Qed.
End Loop.

Lemma ok_loop body : block_ok body -> stmt_ok (SLoop body).
Proof.
  intros Hb p ti k lp hs Hc [Hlen _] Hwf st lps lg.
  rewrite dcomp_loop in Hc. cbv zeta in Hc. rewrite wfs_loop in Hwf. rewrite sz_loop, sem_loop_twice.
  replace (p + 2)%nat with (S (S p)) in Hc by lia.
  apply code_at_cons in Hc as [Hinit Hc]. apply code_at_cons in Hc as [Htest Hc].
  apply code_at_app in Hc as [Hbody Hc]. rewrite dcb_length in Hc. cbn [lt_of] in Hc.
  apply code_at_cons in Hc as [Hincr Hc]. apply code_at_cons in Hc as [Hjmp _].
  replace (p + (2 + szb ti (Some ti) body + 2))%nat with (S (S p) + szb ti (Some ti) body + 2)%nat by lia.
  eapply good_from; [apply star_one, (st_loopinit Hcd Hinit) | apply lagree_set |].
  apply loop_from_test with (n := 2%nat); [| exact Hlen | exact Htest | exact Hincr | exact Hjmp | rewrite get_set_same; reflexivity].
  apply Hb; [exact Hbody | split; [exact Hlen | apply Z.le_refl] | exact Hwf].
Qed.

Section Catch.
Context {ti : Z} {lp : lctx} {hs : list handler} {k fpos : nat} {named : bool} {cb : list skel} {pafter : nat}.
Hypotheses (Hcatch : forall h, block_runs (ti + 1) lp (hs ++ [h]) k (S (S pafter)) cb).
Hypotheses (Hjump : nth_error cd pafter = Some (IJump fpos)) (Hsc : nth_error cd (S pafter) = Some (ISetupCatch named)).
Hypothesis Hfpos : (S (S pafter) + szb (ti + 1) (lt_of lp) cb)%nat = fpos.

(* from the end of the body to the finally part; c is what is left of the handler's catch position: an error
   still pending was raised in the catch part, under c = 0, and so goes on to fpos and not to the catch part again *)
Lemma catch_part {st lps lg o1 S0} :
  good (ti + 1) lp pafter (hs ++ [mkh (length st) (S pafter) fpos 0 None false]) st lps k lg o1 S0 ->
  exists c, (forall e, snd (sem_catch table o1 (Some (named, cb))) = OThrow e -> c = 0%nat) /\
    good (ti + 1) lp fpos (hs ++ [mkh (length st) c fpos 0 None false]) st lps k
         (lg ++ fst (sem_catch table o1 (Some (named, cb)))) (snd (sem_catch table o1 (Some (named, cb)))) S0.
Proof.
  intro Hg. destruct (outcome_cases o1) as [-> | [[e ->] | Hdef]].
  - (* normal end of the body: the jump over the catch part *)
    exists (S pafter). split; [discriminate|]. cbn [sem_catch fst snd]. rewrite app_nil_r.
    apply good_normal_inv in Hg as (junk & lps1 & Ha & Hs). apply (good_normal junk lps1 Ha).
    eapply star_trans; [exact Hs|]. apply star_one, (st_jump Hcd Hjump).
  - (* an error: the handler sends it to the catch part and has no catch position any more *)
    exists 0%nat. split; [reflexivity|]. cbn [sem_catch fst snd]. destruct Hg as [r ds junk lps1 Hds Ha _ Hr]. cbn [arrives] in Hr.
    rewrite throw_here in Hr by (try assumption; left; discriminate).
    cbn [mkh h_catch h_sp Nat.eqb] in Hr. rewrite firstn_app_len in Hr by reflexivity. apply reach_running in Hr.
    pose proof (Hcatch (mkh (length st) 0 fpos 0 None false) st lps1 (lg ++ (if named then [ECaught e] else []))) as Hg2.
    rewrite Hfpos in Hg2. destruct (sem_block table cb) as [lc oc]. cbn [fst snd] in *. rewrite app_assoc.
    eapply good_from; [| exact Ha | exact Hg2].
    eapply star_trans; [exact Hr|]. apply star_one. rewrite (st_setupcatch Hcd Hsc). destruct named; reflexivity.
  - (* break, continue, return: the exit point is not in the catch part *)
    exists (S pafter). destruct o1; try contradiction; cbn [sem_catch fst snd]; rewrite app_nil_r;
      (split; [discriminate | eapply good_pend; [discriminate | exact Hg]]).
Qed.

End Catch.

Section Finally.
Context {ti : Z} {lp : lctx} {hs : list handler} {k fpos : nat} {fb : list skel}.
Notation t0 := (S fpos + szb (ti + 1) (lt_of lp) fb)%nat.
Hypotheses (Hfin : forall h, block_runs (ti + 1) lp (hs ++ [h]) k (S fpos) fb) (Hctx : ctx_ok ti lp hs).
Hypotheses (Hsf : nth_error cd fpos = Some ISetupFinally) (Ht0 : nth_error cd t0 = Some IThrow0) (Hfp : fpos <> 0%nat).

(* The body / catch part of the try statement has ended with outcome o2 under the handler that
   SETUPTRY pushed (c: its catch position, by now 0 if o2 is an error).  The machine gets to the
   finally part with what is pending recorded in the handler, and THROW 0 after the finally block
   takes it up again, whatever that block has left on the stack, in the counters and in the log
   (junk2, lps2, lg2). *)
Lemma pending_recorded {c st lps lg o2 S0} : (forall e, o2 = OThrow e -> c = 0%nat) ->
  good (ti + 1) lp fpos (hs ++ [mkh (length st) c fpos 0 None false]) st lps k lg o2 S0 ->
  exists hx junk lps1, lagree k lps lps1 /\
    star prog S0 (mks (mkf fn fpos (hs ++ [hx]) (st ++ junk) lps1 :: rest) lg) /\
    forall junk2 lps2 lg2, good ti lp (S t0) hs (st ++ junk) lps2 k lg2 o2
                             (mks (mkf fn t0 (hs ++ [settled hx]) ((st ++ junk) ++ junk2) lps2 :: rest) lg2).
Proof.
  set (h := mkh (length st) c fpos 0 None false).
  intros Hc [r ds junk lps1 Hds Ha Hat Harr]. destruct (outcome_cases o2) as [-> | [[e ->] | Hdef]].
  - (* nothing pending: the handler is as SETUPTRY made it, THROW 0 pops it *)
    destruct Hat as [-> ->]. rewrite app_nil_r in Harr. exists h, junk, lps1. split; [exact Ha|]. split; [exact Harr|].
    intros junk2 lps2 lg2. apply (good_normal junk2 lps2 (lagree_refl k lps2)).
    apply star_one. apply (st_throw0_none Hcd Ht0); reflexivity.
  - (* an error: the throw enters the finally part and leaves the error in the handler, THROW 0 raises it again *)
    cbn [arrives] in Harr. rewrite throw_here in Harr by (try assumption; right; exact Hfp).
    cbn [h mkh h_catch h_finally h_sp] in Harr. rewrite (Hc e eq_refl), firstn_app_len in Harr by reflexivity. cbn [Nat.eqb] in Harr.
    exists (with_err h e), [], lps1. rewrite app_nil_r. split; [exact Ha|]. split; [apply reach_running; exact Harr|].
    intros junk2 lps2 lg2. apply (good_at_nil (S t0) junk2 lps2); [apply lagree_refl | exact I |].
    apply reach_now. apply (st_throw0_err Hcd Ht0). reflexivity.
  - (* break, continue, return: FINALIZER notes its own position and the stack height in the handler and
       enters the finally part; THROW 0 cuts the stack and goes back to it, the handler being popped *)
    destruct (at_exit_outer Hctx Hdef Hat) as (upto & Hup & Hfz & Hout).
    rewrite (arrives_deferred prog Hdef) in Harr.
    exists (mkh (length (st ++ junk)) c fpos r None true), junk, lps1. split; [exact Ha|]. split.
    + eapply star_trans; [exact Harr|]. apply star_one. apply (st_finalizer_found (h := h) Hcd Hfz Hds Hup Hfp).
    + intros junk2 lps2 lg2. apply (good_at_nil r [] lps2); [apply lagree_refl | rewrite app_nil_r; apply Hout |].
      rewrite (arrives_deferred prog Hdef), app_nil_r. apply star_one.
      rewrite (st_throw0_ret Hcd Ht0) by reflexivity. cbn [settled mkh h_sp h_return_to]. rewrite firstn_app_len by reflexivity. reflexivity.
Qed.

(* from the end of the body / catch part through the finally block to the exit of the try statement *)
Lemma try_exit {c st lps lg o2 S0} : (forall e, o2 = OThrow e -> c = 0%nat) ->
  good (ti + 1) lp fpos (hs ++ [mkh (length st) c fpos 0 None false]) st lps k lg o2 S0 ->
  good ti lp (S t0) hs st lps k (lg ++ fst (sem_block table fb)) (ovr (snd (sem_block table fb)) o2) S0.
Proof.
  intros Hc Hg. destruct (pending_recorded Hc Hg) as (hx & junk & lps1 & Ha & Hs1 & Hres).
  apply good_base with junk. eapply good_from; [| exact Ha |].
  { eapply star_trans; [exact Hs1|]. apply star_one. apply (st_setupfinally Hcd Hsf). }
  pose proof (Hfin (settled hx) (st ++ junk) lps1 lg) as Hgf.
  destruct (ovr_cases (snd (sem_block table fb)) o2) as [[E ->] | [E ->]].
  - (* the finally block completes *)
    rewrite E in Hgf. apply good_normal_inv in Hgf as (junk2 & lps2 & Ha2 & Hs2).
    eapply good_from; [exact Hs2 | exact Ha2 | apply Hres].
  - (* it does not: its own outcome replaces the pending one *)
    eapply good_lift; [| exact Hctx | exact E | exact Hgf]. split; reflexivity.
Qed.
End Finally.

Lemma ok_try body catch fb :
  block_ok body -> optP block_ok (option_map snd catch) -> block_ok fb -> stmt_ok (STry body catch (Some fb)).
Proof.
  intros Hb Hcb Hfb p ti k lp hs Hc Hctx Hwf st lps lg.
  rewrite dcomp_try in Hc. cbv zeta in Hc. rewrite wfs_try in Hwf.
  apply andb_true_iff in Hwf as [Hwf Hwfin]. apply andb_true_iff in Hwf as [Hwbody Hwcatch].
  rewrite sz_try, sem_try_unfold.
  set (pafter := (S p + szb (ti + 1) (lt_of lp) body)%nat) in *.
  set (fpos := match catch with Some (_, cb) => (pafter + 2 + szb (ti + 1) (lt_of lp) cb)%nat | None => pafter end) in *.
  apply code_at_cons in Hc as [Hsetup Hc]. apply code_at_app in Hc as [Hbody Hc]. rewrite dcb_length in Hc. fold pafter in Hc.
  set (cc := match catch with Some (named, cb) => IJump fpos :: _ | None => [] end) in Hc.
  apply code_at_app in Hc as [Hcatch Hc].
  assert (Hpos: (pafter + length cc)%nat = fpos /\ fpos <> 0%nat)
    by (unfold cc, fpos, pafter; destruct catch as [[named cb]|]; cbn [length]; rewrite ?dcb_length; lia).
  destruct Hpos as [Hpos Hfp]. rewrite Hpos in Hc.
  apply code_at_cons in Hc as [Hsf Hc]. apply code_at_app in Hc as [Hcfb Hc]. rewrite dcb_length in Hc. apply code_at_cons in Hc as [Ht0 _].
  set (h0 := mkh (length st) match catch with Some _ => S pafter | None => 0%nat end fpos 0 None false).
  eapply good_star; [apply star_one, (st_setuptry Hcd Hsetup)|]. fold h0.
  pose proof (block_ok_inner Hb Hbody Hctx Hwbody (le_n k) h0 st lps lg) as Hg.
  destruct (sem_block table body) as [l1 o1]. cbn [fst snd] in Hg.
  assert (exists c, (forall e, snd (sem_catch table o1 catch) = OThrow e -> c = 0%nat) /\
            good (ti + 1) lp fpos (hs ++ [mkh (length st) c fpos 0 None false]) st lps k
                 ((lg ++ l1) ++ fst (sem_catch table o1 catch)) (snd (sem_catch table o1 catch))
                 (mks (mkf fn (S p) (hs ++ [h0]) st lps :: rest) lg)) as (c & Hc0 & Hg2).
  { destruct catch as [[named cb]|]; cbn [optP option_map snd] in *.
    - apply code_at_cons in Hcatch as [Hjump Hcc]. apply code_at_cons in Hcc as [Hsc Hccb].
      replace (pafter + 2)%nat with (S (S pafter)) in Hccb by lia.
      refine (catch_part (block_ok_inner Hcb Hccb Hctx Hwcatch _) Hjump Hsc _ Hg); unfold fpos; lia.
    - exists 0%nat. rewrite sem_catch_none, app_nil_r. split; [reflexivity | exact Hg]. }
  destruct (sem_catch table o1 catch) as [l2 o2]. cbn [fst snd] in Hc0, Hg2.
  assert (Hkf: (k <= k + nlb body + match catch with Some (_, cb) => nlb cb | None => 0 end)%nat) by lia.
  apply (try_exit (block_ok_inner Hfb Hcfb Hctx Hwfin Hkf) Hctx Hsf Ht0 Hfp Hc0) in Hg2.
  destruct (sem_block table fb) as [lf of]. cbn [fst snd] in *. rewrite !app_assoc.
  replace (p + _)%nat with (S (S fpos + szb (ti + 1) (lt_of lp) fb)); [exact Hg2|].
  unfold fpos, pafter. destruct catch as [[named cb]|]; lia.
Qed.

Lemma ok_try_none body catch :
  block_ok body -> optP block_ok (option_map snd catch) -> stmt_ok (STry body catch None).
Proof.
  intros Hb Hcb. unfold stmt_ok. rewrite sem_try_none. exact (ok_try body catch [] Hb Hcb ok_nil).
Qed.

Theorem all_ok : (forall s, stmt_ok s) /\ (forall l, block_ok l).
Proof.
  apply skel_block_ind.
  - apply ok_log.
  - apply (ok_jump true).
  - apply (ok_jump false).
  - apply ok_return.
  - apply ok_throw.
  - apply ok_fail.
  - apply ok_call.
  - apply ok_loop.
  - intros body catch fin Hb Hc Hf. destruct fin as [fb|]; [apply ok_try | apply ok_try_none]; assumption.
  - apply ok_nil.
  - apply ok_cons.
Qed.

(* given Hcalls: the functions below nf run as their meanings say *)
Lemma fn_ok body : cd = dcompile_fn body -> wfb false nf body = true ->
  forall lg, fn_runs prog fn rest lg (lg ++ fst (sem_block table body)) (snd (sem_block table body)).
Proof.
  intros Hcode Hwf lg.
  assert (Hc: code_at cd 0 (dcompile_fn body)) by (rewrite <- Hcode; intros i x Hi; exact Hi).
  apply code_at_app in Hc as [Hbody Hc]. rewrite dcb_length in Hc. apply code_at_cons in Hc as [Hlast _].
  assert (Hruns: block_runs (-1) None [] 0 0 body) by (apply (proj2 all_ok body); [exact Hbody | split; [reflexivity | exact I] | exact Hwf]).
  destruct (Hruns [] [] lg) as [r ds junk lps' Hds _ Hat Harr].
  cbn [app lt_of Nat.add] in *. unfold fn_runs.
  destruct (snd (sem_block table body)); cbn [at_exit arrives retval] in *; try contradiction.
  - (* normal end: the RETURN at the end of the code *) destruct Hat as [-> ->]. eapply reach_star; [exact Harr|]. apply reach_now. apply (st_return Hcd Hlast).
  - (* return *) destruct Hat as [Hp Hv]. destruct (leave_land (l := -1) (hs := []) junk lps' (lg ++ fst (sem_block table body)) eq_refl Hds Hp) as (r' & Hi & Hl).
    eapply reach_star; [exact Harr|]. eapply reach_star; [exact Hl|]. apply reach_now. rewrite (st_return Hcd Hi), Hv. reflexivity.
  - (* error *) rewrite throw_up in Harr by exact Hds. exact Harr.
Qed.
End Sim.

Lemma sem_ext t1 t2 nf : (forall f, (f < nf)%nat -> nth_error t1 f = nth_error t2 f) ->
  (forall s il, wfs il nf s = true -> sem t1 s = sem t2 s) /\ (forall l il, wfb il nf l = true -> sem_block t1 l = sem_block t2 l).
Proof.
  intro Ht. apply skel_block_ind; try reflexivity.
  - (* SCall *) intros f il H. cbn [wfs] in H. apply Nat.ltb_lt in H. cbn [sem]. rewrite (Ht f H). reflexivity.
  - (* SLoop *) intros body IH il H. rewrite wfs_loop in H. rewrite !sem_loop_unfold, (IH true H). reflexivity.
  - (* STry *) intros body catch fin IHb IHc IHf il H. rewrite wfs_try in H.
    apply andb_true_iff in H as [H Hf]. apply andb_true_iff in H as [Hb Hc].
    rewrite !sem_try_unfold, (IHb il Hb). unfold sem_catch.
    destruct catch as [[named cb]|]; cbn [optP option_map snd] in IHc; [rewrite (IHc il Hc)|];
      (destruct fin as [fb|]; cbn [optP] in IHf; [rewrite (IHf il Hf)|]; reflexivity).
  - (* x :: xs *) intros x xs IHx IHxs il H. cbn [wfb] in H. apply andb_true_iff in H as [Hx Hxs].
    cbn [sem_block]. rewrite (IHx il Hx), (IHxs il Hxs). reflexivity.
Qed.

Lemma aux_extends : forall p t, exists ext, sem_program_aux t p = t ++ ext /\ length ext = length p.
Proof.
  induction p as [|b p IH]; intro t; cbn [sem_program_aux].
  - exists []. rewrite app_nil_r. split; reflexivity.
  - destruct (IH (t ++ [sem_fn t b])) as (ext & E & L). exists (sem_fn t b :: ext). rewrite E, <- app_assoc. split; [reflexivity | cbn [length]; lia].
Qed.
Lemma aux_nth : forall p t i b, nth_error p i = Some b ->
  exists pre suf, sem_program_aux t p = pre ++ sem_fn pre b :: suf /\ length pre = (length t + i)%nat.
Proof.
  induction p as [|b0 p IH]; intros t i b Hi; [destruct i; discriminate|]. cbn [sem_program_aux]. destruct i as [|i]; cbn [nth_error] in Hi.
  - injection Hi as ->. destruct (aux_extends p (t ++ [sem_fn t b])) as (ext & E & _). exists t, ext. rewrite E, <- app_assoc. split; [reflexivity | lia].
  - destruct (IH (t ++ [sem_fn t b0]) i b Hi) as (pre & suf & E & L). exists pre, suf. split; [exact E|]. rewrite L, app_length. cbn [length]. lia.
Qed.

Lemma wf_from_nth : forall p n g body, wf_program_from n p = true -> nth_error p g = Some body -> wfb false (n + g) body = true.
Proof.
  induction p as [|b p IH]; intros n g body H Hg; [destruct g; discriminate|].
  cbn [wf_program_from] in H. apply andb_true_iff in H as [Hb Hp]. destruct g as [|g]; cbn [nth_error] in Hg.
  - injection Hg as ->. rewrite Nat.add_0_r. exact Hb.
  - rewrite Nat.add_succ_r. apply (IH (S n)); assumption.
Qed.

Lemma last_map_some {A} (l : list A) : last (map Some l) None = nth_error l (length l - 1).
Proof.
  induction l as [|x [|y l] IH]; [reflexivity | reflexivity |].
  change (last (map Some (x :: y :: l)) None) with (last (map Some (y :: l)) None). rewrite IH.
  cbn [length Nat.sub nth_error]. rewrite Nat.sub_0_r. reflexivity.
Qed.

Section Program.
Variable p : program.
Hypothesis Hwf : wf_program p = true.
Let T := sem_program_aux [] p.
Let prog := dcompile_program p.

Lemma T_nth g body : nth_error p g = Some body -> nth_error T g = Some (sem_block T body).
Proof.
  intro Hg. destruct (aux_nth p [] g body Hg) as (pre & suf & E & L). cbn [length Nat.add] in L. fold T in E.
  rewrite E, nth_error_app2, L, Nat.sub_diag by lia. cbn [nth_error]. f_equal.
  refine (proj2 (sem_ext _ _ g _) body false (wf_from_nth p 0 g body Hwf Hg)).
  intros f Hf. rewrite nth_error_app1 by lia. reflexivity.
Qed.

(* by induction on g: a well-formed function calls only functions before it *)
Lemma all_calls_ok : forall g, (g < length p)%nat -> call_ok prog T g.
Proof.
  intro g. induction g as [g IH] using lt_wf_ind. intro Hg.
  destruct (nth_error p g) as [body|] eqn:Eb; [|apply nth_error_None in Eb; lia].
  exists (fst (sem_block T body)), (snd (sem_block T body)). split; [rewrite (T_nth g body Eb); f_equal; apply surjective_pairing|].
  intros rest lg. revert lg. apply fn_ok with (nf := g) (cd := dcompile_fn body).
  - exact (map_nth_error dcompile_fn g p Eb).
  - intros g' H. apply IH; lia.
  - reflexivity.
  - exact (wf_from_nth p 0 g body Hwf Eb).
Qed.

Theorem simulation : p <> [] ->
  exists fuel, match run fuel prog (mks [mkf (length prog - 1) 0 [] [] []] []) with
               | Done l o => sem_program p = Some (l, o)
               | _ => False
               end.
Proof.
  intro Hne. replace (length prog) with (length p) by (symmetry; apply map_length).
  assert (Hm: (length p - 1 < length p)%nat) by (destruct p; [contradiction | cbn [length]; lia]).
  destruct (all_calls_ok _ Hm) as (lf & o & HT & Hrun).
  destruct (fn_runs_main prog _ lf o (Hrun [] [])) as [fuel Hf]. exists fuel. rewrite Hf.
  assert (HTlen: length T = length p) by (destruct (aux_extends p []) as (ext & E & L); unfold T; rewrite E; exact L).
  unfold sem_program. fold T. rewrite last_map_some, HTlen. exact HT.
Qed.
End Program.

(* Argument binding (C14): xOpCallCompiled and initLocals both compute the declarative binding spec_bind,
   hence agree on every tuple an in-script call accepts. *)
From Coq Require Import List ZArith Lia.
From Ugo Require Import Base.ListFacts Value.PValue VM.CallBinding.
Import ListNotations.

(* the per-case stack manipulation of xOpCallCompiled computes the declarative binding *)
Theorem call_binding_spec nparams variadic args spread :
  call_compiled nparams variadic args spread =
  match effective args spread with
  | Some e => spec_bind nparams variadic e
  | None => None
  end.
Proof.
  unfold call_compiled, effective, spec_bind.
  destruct spread; cbn [negb].
  - destruct (rev args) as [|last front_rev] eqn:Er; [reflexivity|].
    destruct last; try reflexivity.
    apply (rev_eq_app _ [_]) in Er. cbn [rev app] in Er. subst args. set (front := rev front_rev).
    rewrite !app_length. cbn [length].
    destruct variadic.
    + destruct (Nat.ltb_spec (length front + 1) nparams).
      { (* fewer arguments than parameters: both sides ask whether front ++ l fills them *)
        destruct (Nat.ltb_spec (length l + (length front + 1)) nparams),
                 (Nat.ltb_spec (length front + length l) (nparams - 1)); reflexivity || lia. }
      destruct (Nat.ltb_spec (length front + length l) (nparams - 1)); [lia|].
      (* at least nparams - 1 arguments stand before the array: both sides cut inside front *)
      rewrite !firstn_app, skipn_app. replace (nparams - 1 - length front) with 0 by lia.
      cbn [firstn skipn]. rewrite !app_nil_r.
      destruct (Nat.ltb_spec nparams (length front + 1)); [reflexivity|].
      rewrite firstn_all2, skipn_all2 by lia. reflexivity.
    + destruct (Nat.eqb_spec (length l + (length front + 1) - 1) nparams),
               (Nat.eqb_spec (length front + length l) nparams); cbn [negb]; reflexivity || lia.
  - destruct variadic; cbn [negb]; [|reflexivity].
    destruct (Nat.ltb_spec (length args) (nparams - 1)); [reflexivity|].
    destruct (Nat.eqb_spec (length args) (nparams - 1)) as [E|E]; [|reflexivity].
    rewrite firstn_all2, skipn_all2 by lia. reflexivity.
Qed.

Lemma firstn_nth_last {A} (l : list A) d :
  l <> [] -> firstn (length l - 1) l ++ [nth (length l - 1) l d] = l.
Proof.
  induction l as [|x xs _] using rev_ind; [contradiction|]. intros _.
  rewrite app_length. cbn [length]. replace (length xs + 1 - 1) with (length xs) by lia.
  rewrite firstn_app_len, app_nth2, Nat.sub_diag by lia. reflexivity.
Qed.

Lemma init_locals_spec nparams variadic args params :
  (variadic = true -> 1 <= nparams) ->
  spec_bind nparams variadic args = Some params -> init_locals nparams variadic args = params.
Proof.
  intros Hv. unfold spec_bind, init_locals. destruct variadic.
  - specialize (Hv eq_refl).
    destruct (Nat.ltb_spec (length args) (nparams - 1)); [discriminate|]. intros [= <-].
    destruct (Nat.eqb_spec nparams 0); [lia|].
    destruct (Nat.ltb_spec (length args) nparams); [|reflexivity].
    (* exactly nparams - 1 arguments: the variadic parameter is the empty array *)
    rewrite (firstn_all2 args), (skipn_all2 args) by lia. f_equal.
    rewrite skipn_app, firstn_length, repeat_length.
    rewrite skipn_all2 by (rewrite firstn_length, repeat_length; lia).
    replace (length args - Nat.min (nparams - 1) nparams) with 0 by lia. reflexivity.
  - destruct (Nat.eqb_spec (length args) nparams) as [<-|]; [|discriminate]. intros [= <-].
    destruct args as [|x xs]; [reflexivity|]. cbn [length Nat.eqb].
    destruct (Nat.ltb_spec (S (length xs)) (S (length xs))); [lia|].
    apply (firstn_nth_last (x :: xs)). discriminate.
Qed.

(* Invoke / Run bind Main's parameters through initLocals; on every argument tuple that an
   in-script call accepts it produces the same parameter values *)
Theorem binding_agrees nparams variadic args params :
  (variadic = true -> 1 <= nparams) ->
  call_compiled nparams variadic args false = Some params ->
  init_locals nparams variadic args = params.
Proof.
  intros Hv H. rewrite call_binding_spec in H. apply init_locals_spec; assumption.
Qed.

(* a variadic function called with fewer arguments than parameters through Run / Invoke:
   the lenient case, not compared with in-script calls *)
Example init_locals_lenient :
  init_locals 3 true [PInt 1] = [PInt 1; PUndef; PArr []] /\
  init_locals 2 false [PInt 1; PInt 2; PInt 3] = [PInt 1; PInt 2].
Proof. split; reflexivity. Qed.

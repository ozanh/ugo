(* What a run starts from (C07) and how it ends (C06): after the prologue every slot a run can read
   before writing it is the same whatever the VM did before; the epilogue stays inside the stack. *)
From Coq Require Import List ZArith Lia.
From Ugo Require Import Base.Res Value.PValue VM.RunReset.
Local Open Scope Z_scope.

Lemma write_locals_outside st i vals j :
  (j < i \/ i + length vals <= j)%nat -> write_locals st i vals j = st j.
Proof.
  revert st i. induction vals as [|v r IH]; intros st i H; simpl in *; [reflexivity|].
  rewrite IH by lia. unfold upd. destruct (Nat.eqb_spec i j); [lia | reflexivity].
Qed.

Lemma write_locals_at st i vals j :
  (i <= j < i + length vals)%nat -> write_locals st i vals j = Some (nth (j - i) vals PUndef).
Proof.
  revert st i. induction vals as [|v r IH]; intros st i H; simpl in *; [lia|].
  destruct (Nat.eq_dec i j) as [->|Hne].
  - rewrite write_locals_outside by lia. unfold upd. rewrite Nat.eqb_refl, Nat.sub_diag. reflexivity.
  - rewrite IH by lia. replace (j - i)%nat with (S (j - S i)) by lia. reflexivity.
Qed.

Lemma write_locals_ext st st' i vals j : st j = st' j -> write_locals st i vals j = write_locals st' i vals j.
Proof.
  revert st st' i. induction vals as [|v r IH]; intros st st' i H; simpl; [exact H|].
  apply IH. unfold upd. rewrite H. reflexivity.
Qed.

(* every slot below sp is written by the prologue, independently of the previous stack *)
Lemma prologue_slots s1 s2 bc g args j :
  (j < mf_locals (bc_main bc))%nat ->
  v_stack (run_prologue s1 bc g args) j = v_stack (run_prologue s2 bc g args) j.
Proof.
  intros Hj. unfold run_prologue. cbv zeta. cbn [v_stack].
  apply write_locals_ext. rewrite !write_locals_at by (rewrite repeat_length; lia). reflexivity.
Qed.

(* C07: after SetBytecode (or Clear + SetBytecode) the state a run starts from depends only on
   the Bytecode, the globals and the arguments - whatever the VM did before *)
Theorem run_state_independent s1 s2 bc g args :
  live_of (run_prologue (set_bytecode s1 bc) bc g args) = live_of (run_prologue (set_bytecode s2 bc) bc g args).
Proof.
  unfold live_of.
  assert (Hsp: forall s, v_sp (run_prologue s bc g args) = Z.of_nat (mf_locals (bc_main bc))) by reflexivity.
  rewrite !Hsp, Nat2Z.id.
  rewrite (map_ext_in _ (v_stack (run_prologue (set_bytecode s2 bc) bc g args)))
    by (intros j Hj; apply in_seq in Hj; apply prologue_slots; lia).
  unfold run_prologue, set_bytecode, upd.
  cbn [v_frames v_ip v_frame_index v_err v_abort v_globals v_modules v_bytecode Nat.eqb
       fr_fn fr_free fr_handlers fr_bp fr_discard].
  destruct (mf_free (bc_main bc)); reflexivity.
Qed.

Theorem run_state_independent_cleared s1 s2 bc g args :
  live_of (run_prologue (set_bytecode (clear s1) bc) bc g args) = live_of (run_prologue (set_bytecode s2 bc) bc g args).
Proof. apply run_state_independent. Qed.

(* C06: reading the result never indexes below the stack: every normal exit of the loop leaves
   sp >= 1 (the base pointer of frame 0 is 0, for which RETURN sets sp to NumLocals + 1) *)
Theorem run_epilogue_no_panic s : 1 <= v_sp s -> is_panic (run_epilogue s) = false.
Proof.
  intros H. unfold run_epilogue. destruct (v_err s); [reflexivity|].
  destruct (v_sp s <? stack_size); [|reflexivity].
  destruct (Z.ltb_spec (v_sp s - 1) 0); [lia | reflexivity].
Qed.

(* handlePanic hands a panic to a script handler only in states where throw can index the stack *)
Theorem can_unwind_bounds s :
  can_unwind s = true -> v_sp s < stack_size /\ v_frame_index s <= frame_size /\ v_err s = None.
Proof.
  unfold can_unwind. intros H. destruct (v_err s); [lia | repeat split; lia].
Qed.

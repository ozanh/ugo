(* Laws of the operator model (property C15).  The notions they go through: `benign` (a value or a documented
   error, method by method), `binop_by_rule` (arithmetic is the operator of the joined kind), `three_way_laws`
   (the four orderings and == are tests on one comparison). *)
From Coq Require Import List ZArith Bool Lia String.
From Ugo Require Import Base.Res Base.GoFloat Base.FloatLemmas Value.PValue Value.Ops Value.OpsSpec.
Import ListNotations.
Local Open Scope Z_scope.

Lemma byte_val_inj x y : byte_val x = byte_val y -> x = y.
Proof.
  unfold byte_val. intros H. apply N2Z.inj in H.
  pose proof (Byte.of_to_N x) as Hx. pose proof (Byte.of_to_N y) as Hy.
  rewrite H in Hx. rewrite Hx in Hy. inversion Hy. reflexivity.
Qed.

Lemma bstr_cmp_antisym a b : bstr_cmp b a = CompOpp (bstr_cmp a b).
Proof.
  revert b. induction a as [|x xs IH]; intros [|y ys]; simpl; try reflexivity.
  rewrite (Z.compare_antisym (byte_val x) (byte_val y)).
  destruct (byte_val x ?= byte_val y); simpl; try reflexivity. apply IH.
Qed.

Lemma bstr_cmp_eq a b : bstr_cmp a b = Eq <-> a = b.
Proof.
  revert b. induction a as [|x xs IH]; intros [|y ys]; simpl; split; intros H; try reflexivity; try discriminate.
  - destruct (byte_val x ?= byte_val y) eqn:E; try discriminate.
    apply Z.compare_eq in E. apply byte_val_inj in E. subst. f_equal. apply IH. exact H.
  - inversion H; subst. rewrite Z.compare_refl. apply IH. reflexivity.
Qed.

Lemma bstr_eqb_true a b : bstr_eqb a b = true <-> a = b.
Proof.
  unfold bstr_eqb. split; intros H.
  - apply bstr_cmp_eq. destruct (bstr_cmp a b); try discriminate; reflexivity.
  - apply bstr_cmp_eq in H. rewrite H. reflexivity.
Qed.

Lemma bstr_eqb_sym a b : bstr_eqb a b = bstr_eqb b a.
Proof. unfold bstr_eqb. rewrite (bstr_cmp_antisym a b). destruct (bstr_cmp a b); reflexivity. Qed.

Lemma bstr_eqb_refl a : bstr_eqb a a = true.
Proof. apply bstr_eqb_true. reflexivity. Qed.

(* distinct keys, as in any Go map; == on maps is symmetric only then: lookup takes the first binding of a key, the
   length test counts all *)
Fixpoint nodup_keys (ks : list bstr) : bool :=
  match ks with
  | [] => true
  | k :: r => negb (existsb (bstr_eqb k) r) && nodup_keys r
  end.

Fixpoint wfb (v : pvalue) : bool :=
  match v with
  | PArr l => forallb wfb l
  | PMap m | PSyncMap m => nodup_keys (map fst m) && forallb (fun kv => wfb (snd kv)) m
  | _ => true
  end.

Lemma nodup_keys_NoDup ks : nodup_keys ks = true -> NoDup ks.
Proof.
  induction ks as [|k r IH]; simpl; intros H; constructor.
  - apply andb_true_iff in H as [H1 _]. apply negb_true_iff in H1.
    intros Hin. assert (existsb (bstr_eqb k) r = true).
    { apply existsb_exists. exists k. split; [exact Hin | apply bstr_eqb_refl]. }
    congruence.
  - apply IH. apply andb_true_iff in H as [_ H2]. exact H2.
Qed.

(* the local fix of equal's map case, under a name *)
Definition map_sub (e : pvalue -> pvalue -> bool) (o v : list (bstr * pvalue)) : bool :=
  (fix go (o' : list (bstr * pvalue)) : bool :=
     match o' with
     | [] => true
     | (k, x) :: rest =>
         match lookup k v with
         | None => false
         | Some y => if e x y then go rest else false
         end
     end) o.

Lemma equal_map_unfold o v :
  equal (PMap o) (PMap v) = Nat.eqb (List.length o) (List.length v) && map_sub equal o v.
Proof. reflexivity. Qed.

Lemma equal_map_cases o r :
  equal (PMap o) r = match r with
                     | PMap v | PSyncMap v => Nat.eqb (List.length o) (List.length v) && map_sub equal o v
                     | _ => false
                     end.
Proof. destruct r; reflexivity. Qed.
Lemma equal_syncmap_cases o r : equal (PSyncMap o) r = equal (PMap o) r.
Proof. destruct r; reflexivity. Qed.

Lemma lookup_In {k v y} : lookup k v = Some y -> In (k, y) v.
Proof.
  induction v as [|[k' z] r IH]; simpl; intros H; try discriminate.
  destruct (bstr_eqb k k') eqn:E.
  - apply bstr_eqb_true in E. inversion H; subst. left. reflexivity.
  - right. apply IH. exact H.
Qed.

Lemma In_lookup {k y v} : NoDup (map fst v) -> In (k, y) v -> lookup k v = Some y.
Proof.
  induction v as [|[k' z] r IH]; simpl; intros Hnd Hin; [contradiction|].
  inversion Hnd as [|? ? Hnotin Hnd']; subst.
  destruct Hin as [Heq|Hin].
  - inversion Heq; subst. rewrite bstr_eqb_refl. reflexivity.
  - destruct (bstr_eqb k k') eqn:E.
    + apply bstr_eqb_true in E. subst. destruct Hnotin. exact (in_map fst _ _ Hin).
    + apply IH; assumption.
Qed.

Lemma map_sub_spec e o v :
  map_sub e o v = true <->
  (forall k x, In (k, x) o -> exists y, lookup k v = Some y /\ e x y = true).
Proof.
  unfold map_sub. induction o as [|[k x] rest IH]; split; intros H.
  - intros ? ? [].
  - reflexivity.
  - destruct (lookup k v) as [y|] eqn:E; try discriminate.
    destruct (e x y) eqn:Ee; try discriminate.
    intros k0 x0 [Heq|Hin].
    + inversion Heq; subst. exists y. split; assumption.
    + apply (proj1 IH H). exact Hin.
  - destruct (H k x (or_introl eq_refl)) as [y [Hy He]]. rewrite Hy, He.
    apply (proj2 IH). intros k0 x0 Hin. apply H. right. exact Hin.
Qed.

Lemma map_sub_flip (e : pvalue -> pvalue -> bool) o v :
  (forall k x y, In (k, x) o -> In (k, y) v -> e x y = e y x) ->
  NoDup (map fst o) -> NoDup (map fst v) -> List.length o = List.length v ->
  map_sub e o v = true -> map_sub e v o = true.
Proof.
  intros Hsym Hno Hnv Hlen Hsub. pose proof (proj1 (map_sub_spec e o v) Hsub) as Hs.
  apply map_sub_spec. intros k y Hy.
  (* as many distinct keys on both sides, and those of o are keys of v: every key of v is a key of o *)
  assert (Hk : In k (map fst o)).
  { apply (NoDup_length_incl (l' := map fst v) Hno); [rewrite !map_length; lia | | exact (in_map fst _ _ Hy)].
    intros k' Hk'. apply in_map_iff in Hk' as [[k'' x] [<- Hx]]. destruct (Hs _ _ Hx) as (y' & Hy' & _).
    exact (in_map fst _ _ (lookup_In Hy')). }
  apply in_map_iff in Hk as [[k' x] [Hk Hx]]. simpl in Hk. subst k'.
  exists x. split; [apply In_lookup; assumption|].
  destruct (Hs _ _ Hx) as (y' & Hy' & He).
  rewrite (In_lookup Hnv Hy) in Hy'. injection Hy' as <-.
  rewrite <- (Hsym k x y Hx Hy). exact He.
Qed.

(* the first hypothesis is the induction hypothesis of equal_sym at PMap o *)
Lemma map_equal_sym o v :
  Forall (fun kv => forall b, wfb (snd kv) = true -> wfb b = true -> equal (snd kv) b = equal b (snd kv)) o ->
  wfb (PMap o) = true -> wfb (PMap v) = true ->
  equal (PMap o) (PMap v) = equal (PMap v) (PMap o).
Proof.
  intros IH Ho Hv. rewrite !equal_map_unfold.
  apply andb_true_iff in Ho as [Ho Hwo], Hv as [Hv Hwv].
  apply nodup_keys_NoDup in Ho, Hv. rewrite forallb_forall in Hwo, Hwv. rewrite Forall_forall in IH.
  assert (Hsym : forall k x y, In (k, x) o -> In (k, y) v -> equal x y = equal y x).
  { intros k x y Hx Hy. apply (IH (k, x) Hx); [apply (Hwo (k, x) Hx) | apply (Hwv (k, y) Hy)]. }
  rewrite (Nat.eqb_sym (List.length v)).
  destruct (Nat.eqb_spec (List.length o) (List.length v)) as [El|]; [|reflexivity].
  apply eq_true_iff_eq. split; intros H.
  - apply (map_sub_flip equal o v); auto.
  - apply (map_sub_flip equal v o); auto. intros k y x Hy Hx. symmetry. exact (Hsym k x y Hx Hy).
Qed.

Definition arr_equal (e : pvalue -> pvalue -> bool) : list pvalue -> list pvalue -> bool :=
  fix go (o' v' : list pvalue) : bool :=
    match o', v' with
    | [], [] => true
    | x :: xs, y :: ys => if e x y then go xs ys else false
    | _, _ => false
    end.

Lemma equal_arr_unfold o v : equal (PArr o) (PArr v) = arr_equal equal o v.
Proof. reflexivity. Qed.

Lemma arr_equal_sym o v :
  (forall x y, In x o -> In y v -> equal x y = equal y x) ->
  arr_equal equal o v = arr_equal equal v o.
Proof.
  revert v. induction o as [|x xs IH]; intros [|y ys] H; simpl; try reflexivity.
  rewrite (H x y (or_introl eq_refl) (or_introl eq_refl)).
  destruct (equal y x); [|reflexivity].
  apply IH. intros x' y' Hx Hy. apply H; right; assumption.
Qed.

Theorem equal_sym a : forall b, wfb a = true -> wfb b = true -> equal a b = equal b a.
Proof.
  induction a as [ | x | x | x | x | x | | | l IH | m IH | m IH | | | | ]
    using pvalue_ind'; intros b Ha Hb;
    destruct b as [ | y | y | y | y | y | | | l' | m' | m' | | | | ];
    (* kinds that are never equal; a Bool with a number: one test both ways *)
    try reflexivity;
    try (cbn [equal]; first [apply Z.eqb_sym | apply feqb_sym | apply bstr_eqb_sym | destruct x, y; reflexivity]);
    (* PMap or PSyncMap on either side: convertible to PMap on both *)
    try exact (map_equal_sym m m' IH Ha Hb).
  (* left: PArr l with PArr l' *)
  rewrite !equal_arr_unfold. apply arr_equal_sym.
  rewrite Forall_forall in IH. cbn [wfb] in Ha, Hb. rewrite forallb_forall in Ha, Hb.
  intros x y Hx Hy. apply IH; auto.
Qed.

Theorem neq_negb a b : vm_not_equal a b = PBool (negb (match vm_equal a b with PBool x => x | _ => false end)).
Proof. reflexivity. Qed.

Definition numeric (v : pvalue) : bool :=
  match v with PInt _ | PUint _ | PFloat _ | PChar _ | PBool _ => true | _ => false end.

Definition documented_error (e : uerror) : bool :=
  bstr_eqb (err_name e) (bs "TypeError") || bstr_eqb (err_name e) (bs "ZeroDivisionError").

Definition benign (r : res pvalue) : Prop :=
  match r with Ok _ => True | Err e => documented_error e = true | _ => False end.

Lemma benign_no_panic r : benign r -> is_panic r = false.
Proof. destruct r; simpl; intros H; try reflexivity; contradiction. Qed.

Lemma type_error_documented t l r : documented_error (operand_type_error t l r) = true.
Proof. reflexivity. Qed.

(* the operators are switches (on the token, the right operand, a zero or sign test) over values, documented
   errors and calls of operators shown benign before: one hint fits each goal *)
#[local] Hint Extern 2 (benign (match ?x with _ => _ end)) => destruct x; cbn [benign] : benign.
#[local] Hint Resolve type_error_documented : benign.

Lemma int_binop_benign wrap bits signed mk t a b e :
  documented_error e = true -> benign (int_binop wrap bits signed mk t a b e).
Proof. intros He. unfold int_binop. auto with benign. Qed.

Lemma float_float_binop_benign t a b e :
  documented_error e = true -> benign (float_float_binop t a b e).
Proof. intros He. unfold float_float_binop. auto with benign. Qed.

Lemma undef_right_benign t e : documented_error e = true -> benign (undef_right t e).
Proof. intros He. unfold undef_right. auto with benign. Qed.
#[local] Hint Resolve int_binop_benign float_float_binop_benign undef_right_benign : benign.

Lemma undef_right_no_panic t e : is_panic (undef_right t e) = false.
Proof. destruct t; reflexivity. Qed.

Lemma cmp_binop_no_panic t c e : is_panic (cmp_binop t c e) = false.
Proof. destruct t; reflexivity. Qed.

Lemma float_binop_benign t o r : benign (float_binop t o r).
Proof. unfold float_binop. auto with benign. Qed.
#[local] Hint Resolve float_binop_benign : benign.

Lemma uint_binop_benign t o r : benign (uint_binop t o r).
Proof. unfold uint_binop, uint_uint_binop. auto with benign. Qed.
#[local] Hint Resolve uint_binop_benign : benign.

Lemma int_binop'_benign t o r : benign (int_binop' t o r).
Proof. unfold int_binop', int_int_binop. auto with benign. Qed.

Lemma char_binop_benign t o r : benign (char_binop t o r).
Proof. unfold char_binop, char_char_binop. auto with benign. Qed.

Lemma bool_binop_benign t o r : benign (bool_binop t o r).
Proof. destruct r; cbn [bool_binop benign]; unfold int_int_binop, uint_uint_binop; auto with benign. Qed.

Theorem numeric_binop_benign t a b : numeric a = true -> benign (binop t a b).
Proof.
  destruct a; try discriminate; intros _; cbn [binop].
  - apply bool_binop_benign.
  - apply int_binop'_benign.
  - apply uint_binop_benign.
  - apply float_binop_benign.
  - apply char_binop_benign.
Qed.

Theorem numeric_errors_documented t a b e :
  numeric a = true -> numeric b = true -> binop t a b = Err e -> documented_error e = true.
Proof.
  intros Ha _ H. pose proof (numeric_binop_benign t a b Ha) as Hb. rewrite H in Hb. exact Hb.
Qed.

Lemma string_binop_no_panic t o r : is_panic (string_binop t o r) = false.
Proof.
  (* the default: of the Go switch, which every right operand but three falls into *)
  assert (D : forall e, is_panic (match t with
                                  | TAdd => match to_string_simple r with
                                            | Some s => Ok (PStr (o ++ s))
                                            | None => Ok inconclusive
                                            end
                                  | _ => Err e
                                  end) = false).
  { intros e. destruct t; try reflexivity. destruct (to_string_simple r); reflexivity. }
  destruct r; try apply D; destruct t; reflexivity.
Qed.

Lemma bytes_binop_no_panic t o r : is_panic (bytes_binop t o r) = false.
Proof.
  unfold bytes_binop. destruct r; try reflexivity; try apply undef_right_no_panic;
    destruct t; reflexivity.
Qed.

Lemma undef_binop_cmp t r :
  undef_binop t r = cmp_binop t (match r with PUndef => Eq | _ => Lt end) (operand_type_error t PUndef r).
Proof. destruct r; reflexivity. Qed.

Lemma map_binop_no_panic t o r : is_panic (map_binop t o r) = false.
Proof. destruct r; try reflexivity. apply undef_right_no_panic. Qed.

Theorem binop_no_panic t a b : is_panic (binop t a b) = false.
Proof.
  destruct a; try (apply benign_no_panic, numeric_binop_benign; reflexivity); cbn [binop]; try reflexivity.
  - rewrite undef_binop_cmp. apply cmp_binop_no_panic.
  - apply string_binop_no_panic.
  - apply bytes_binop_no_panic.
  - unfold array_binop. destruct t; try reflexivity; destruct b; reflexivity.
  - apply map_binop_no_panic.
  - apply map_binop_no_panic.
Qed.

Theorem unop_no_panic t a : is_panic (unop t a) = false.
Proof. destruct t; simpl; try reflexivity; destruct a; reflexivity. Qed.

(* the rule of docs/operators.md: the Go operator of kind k on both operands converted to k.  spec_binop has this
   match inline, at dummy_err and with the error forgotten (spec_binop_kind) *)
Definition kind_binop (k : nkind) (t : tok) (a b : pvalue) (e : uerror) : res pvalue :=
  match k with
  | KInt => int_int_binop t (conv_int KInt a) (conv_int KInt b) e
  | KUint => uint_uint_binop t (conv_int KUint a) (conv_int KUint b) e
  | KChar => char_char_binop t (conv_int KChar a) (conv_int KChar b) e
  | KFloat => float_float_binop t (conv_float a) (conv_float b) e
  end.

Lemma spec_binop_kind {t a b k} :
  arith_tok t = true -> join a b = Some k ->
  spec_binop t a b = match kind_binop k t a b dummy_err with Ok v => Some v | _ => None end.
Proof. intros Ht Hk. unfold spec_binop. rewrite Ht, Hk. destruct k; reflexivity. Qed.

Lemma int_binop_ok wrap bits signed mk t a b e e' v :
  int_binop wrap bits signed mk t a b e = Ok v -> int_binop wrap bits signed mk t a b e' = Ok v.
Proof. destruct t; cbn [int_binop]; intros H; first [exact H | discriminate H]. Qed.

Lemma float_float_binop_ok t a b e e' v :
  float_float_binop t a b e = Ok v -> float_float_binop t a b e' = Ok v.
Proof. destruct t; cbn [float_float_binop]; intros H; first [exact H | discriminate H]. Qed.

Lemma kind_binop_ok {k t a b e e' v} : kind_binop k t a b e = Ok v -> kind_binop k t a b e' = Ok v.
Proof. destruct k; first [apply int_binop_ok | apply float_float_binop_ok]. Qed.

Theorem binop_by_rule t a b :
  numeric a = true -> numeric b = true -> arith_tok t = true ->
  exists l r, let e := operand_type_error t l r in
    binop t a b = Err e \/ exists k, join a b = Some k /\ binop t a b = kind_binop k t a b e.
Proof.
  intros Ha Hb Ht. destruct a; try discriminate Ha; destruct b; try discriminate Hb; clear Ha Hb;
    do 2 eexists;
    first
      [ right; eexists; split; reflexivity
      | (* refused whatever the token: Bool with Float or Char, Float with Char, Char with Float *)
        left; reflexivity
      | (* Char with Int or Uint, either order: + and - written out, the other tokens refused (whose goals fix l
           and r, which the results of + and - do not mention) *)
        destruct t; try discriminate Ht; first [ left; reflexivity | right; eexists; split; reflexivity ] ].
Qed.

Theorem arith_spec t a b v :
  numeric a = true -> numeric b = true -> arith_tok t = true ->
  binop t a b = Ok v -> spec_binop t a b = Some v.
Proof.
  intros Ha Hb Ht Hv.
  destruct (binop_by_rule t a b Ha Hb Ht) as (l & r & [E | (k & Hk & E)]); rewrite E in Hv; [discriminate|].
  rewrite (spec_binop_kind Ht Hk), (kind_binop_ok (e' := dummy_err) Hv). reflexivity.
Qed.

Definition rel (t : tok) (a b : pvalue) : option bool :=
  match binop t a b with Ok (PBool r) => Some r | _ => None end.
Definition is_some {A} (o : option A) : bool := match o with Some _ => true | None => false end.
Definition cmp_defined (a b : pvalue) : bool :=
  is_some (rel TLess a b) && is_some (rel TLessEq a b) && is_some (rel TGreater a b) && is_some (rel TGreaterEq a b) &&
  is_some (rel TLess b a) && is_some (rel TLessEq b a) && is_some (rel TGreater b a) && is_some (rel TGreaterEq b a).
Definition has_nan (v : pvalue) : bool := match v with PFloat f => is_nan f | _ => false end.
Definition one_true (x y z : bool) : bool :=
  (x && negb y && negb z) || (negb x && y && negb z) || (negb x && negb y && z).

(* exactly one of <, ==, >; <= and >= are < or ==, > or ==; > of the swapped pair is < *)
Definition laws (a b : pvalue) : Prop :=
  exists lt gt, rel TLess a b = Some lt /\ rel TGreater a b = Some gt /\
    one_true lt (equal a b) gt = true /\
    rel TLessEq a b = Some (lt || equal a b) /\
    rel TGreaterEq a b = Some (gt || equal a b) /\
    rel TGreater b a = Some lt.

Lemma claws (c : comparison) :
  one_true (match c with Lt => true | _ => false end) (match c with Eq => true | _ => false end)
           (match c with Gt => true | _ => false end) = true.
Proof. destruct c; reflexivity. Qed.

Definition cmp_tok (t : tok) : bool :=
  match t with TLess | TLessEq | TGreater | TGreaterEq => true | _ => false end.

Lemma int_binop_cmp wrap bits signed mk t x y e :
  cmp_tok t = true -> int_binop wrap bits signed mk t x y e = cmp_binop t (x ?= y) e.
Proof.
  destruct t; try discriminate; intros _; cbn [int_binop cmp_binop]; unfold Z.ltb, Z.leb; try reflexivity;
    rewrite (Z.compare_antisym x y); destruct (x ?= y); reflexivity.
Qed.

Lemma float_float_binop_cmp t x y e :
  cmp_tok t = true -> is_nan x = false -> is_nan y = false ->
  float_float_binop t x y e = cmp_binop t (fcompare x y) e.
Proof.
  intros Ht Hx Hy. destruct t; try discriminate Ht; cbn [float_float_binop cmp_binop];
    rewrite ?fltb_fcompare, ?fleb_fcompare, ?(fcompare_antisym x y) by assumption;
    destruct (fcompare x y); reflexivity.
Qed.

(* c' is what the model computes for the swapped pair (y ?= x for x ?= y): CompOpp c by a lemma, not by conversion *)
Lemma three_way_laws c c' a b :
  (forall t, cmp_tok t = true -> exists e, binop t a b = cmp_binop t c e) ->
  (exists e, binop TGreater b a = cmp_binop TGreater c' e) -> c' = CompOpp c ->
  equal a b = match c with Eq => true | _ => false end ->
  laws a b.
Proof.
  intros F [e' B] -> E. unfold laws, rel. rewrite B, E.
  destruct (F TLess eq_refl) as [e1 ->], (F TLessEq eq_refl) as [e2 ->],
           (F TGreater eq_refl) as [e3 ->], (F TGreaterEq eq_refl) as [e4 ->].
  cbn [cmp_binop]. do 2 eexists. repeat split; [apply claws | destruct c; reflexivity ..].
Qed.

Theorem cmp_laws a b :
  cmp_defined a b = true -> has_nan a = false -> has_nan b = false -> laws a b.
Proof.
  intros Hd Ha Hb.
  destruct a as [ | x | x | x | x | x | | | | | | | | | ]; try discriminate Hd;
    destruct b as [ | y | y | y | y | y | | | | | | | | | ];
    try discriminate Hd; clear Hd; cbn [has_nan] in Ha, Hb;
    (* laws mentions four concrete tokens and ==, and under those a Char is handled as the Int of the same value *)
    try change (laws (PChar ?c) ?b) with (laws (PInt c) b);
    try change (laws ?a (PChar ?d)) with (laws a (PInt d));
    first
      [ (* an Undef operand: every outcome is a constant *)
        do 2 eexists; repeat split; reflexivity
      | (* Bool, Int, Uint among themselves: Z.compare after conversion; == with a Bool on the left tests the swapped
           operands, two Bools go by cases *)
        eapply three_way_laws;
        [ intros t Ht; eexists; apply int_binop_cmp, Ht
        | eexists; apply int_binop_cmp; reflexivity
        | apply Z.compare_antisym
        | cbn [equal]; first [ apply Z.eqb_compare | rewrite Z.eqb_sym; apply Z.eqb_compare | destruct x, y; reflexivity ] ]
      | (* a Float with a Float, Int or Uint: fcompare after conversion, neither side a NaN *)
        eapply three_way_laws;
        [ intros t Ht; eexists; apply float_float_binop_cmp; [ exact Ht | .. ]
        | eexists; apply float_float_binop_cmp; [ reflexivity | .. ]
        | apply fcompare_antisym
        | apply feqb_fcompare ];
        first [ assumption | apply f64_of_Z_not_nan ]
      | (* Str, Bytes among themselves: bstr_cmp *)
        eapply three_way_laws;
        [ intros t Ht; exists dummy_err; destruct t; try discriminate Ht; reflexivity
        | eexists; reflexivity
        | apply bstr_cmp_antisym
        | reflexivity ] ].
Qed.
